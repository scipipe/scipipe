(* FileToParamsReader and CommandToParams (C19): both hand the text they read to bufio.Scanner with ScanLines and emit one
   parameter per token.  lines_of (Splitter.v) is that scanner; these are the "exactly the read items, in order" statements. *)
From Coq Require Import List Arith.
Import ListNotations.
Require Import Splitter.

Definition no_lf (l : list byte) : Prop := ~ In LF l.
Definition no_trailing_cr (l : list byte) : Prop := forall r, l <> r ++ [CR].

Lemma dropCR_id l : no_trailing_cr l -> dropCR l = l.
Proof.
  intros H. unfold dropCR. destruct (rev l) as [|c r] eqn:E; [reflexivity|].
  destruct (Nat.eqb_spec c CR) as [->|]; [|reflexivity].
  exfalso. apply (H (rev r)). rewrite <- (rev_involutive l), E. reflexivity.
Qed.

Lemma scan_no_lf l : forall cur r, no_lf l -> scan_lines (l ++ r) cur = scan_lines r (rev l ++ cur).
Proof.
  induction l as [|c l IH]; intros cur r H; simpl; [reflexivity|].
  destruct (Nat.eqb_spec c LF) as [->|N]; [exfalso; apply H; left; reflexivity|].
  rewrite IH; [|intros X; apply H; right; exact X]. now rewrite <- app_assoc.
Qed.

Lemma reader_lines_and_rest (ls : list (list byte)) (last : list byte) :
  Forall no_lf ls -> Forall no_trailing_cr ls -> no_lf last -> no_trailing_cr last ->
  lines_of (concat (map (fun l => l ++ [LF]) ls) ++ last) = ls ++ match last with [] => [] | _ => [last] end.
Proof.
  unfold lines_of. intros F C Fl Cl. induction F as [|l ls F1 _ IH]; simpl.
  - rewrite <- (app_nil_r last) at 1. rewrite scan_no_lf by exact Fl. simpl. rewrite app_nil_r.
    destruct last as [|b m]; [reflexivity|]. destruct (rev (b :: m)) eqn:E; [apply (f_equal (@length _)) in E; rewrite rev_length in E; discriminate|].
    rewrite <- E, rev_involutive, (dropCR_id _ Cl). reflexivity.
  - inversion C as [|? ? C1 Cr]. rewrite <- !app_assoc, scan_no_lf by exact F1. simpl.
    rewrite app_nil_r, rev_involutive, (dropCR_id l C1), (IH Cr). reflexivity.
Qed.

Theorem reader_emits_the_lines (ls : list (list byte)) :
  Forall no_lf ls -> Forall no_trailing_cr ls ->
  lines_of (concat (map (fun l => l ++ [LF]) ls)) = ls.
Proof.
  intros F C. pose proof (reader_lines_and_rest ls [] F C) as E. rewrite !app_nil_r in E.
  apply E; [intros []|intros r X; destruct r; discriminate].
Qed.

Theorem reader_emits_an_unterminated_last_line (ls : list (list byte)) (last : list byte) :
  Forall no_lf ls -> Forall no_trailing_cr ls -> no_lf last -> no_trailing_cr last -> last <> [] ->
  lines_of (concat (map (fun l => l ++ [LF]) ls) ++ last) = ls ++ [last].
Proof. intros F C Fl Cl NE. rewrite (reader_lines_and_rest ls last F C Fl Cl). destruct last; [congruence|reflexivity]. Qed.

Theorem reader_of_nothing_emits_nothing : lines_of [] = [].
Proof. reflexivity. Qed.

Example reader_keeps_blank_lines : lines_of [97; LF; LF; 98; LF] = [[97]; []; [98]].
Proof. reflexivity. Qed.
