(* C02 -- Existing outputs are never re-executed or modified.  Model: TaskFS (see PropC01). *)
From Coq Require Import List Bool.
From SP Require Import Skel Gen Expected ExpectedCones Result TaskFS TInv Glue Cor.

(* T1: the skip check precedes slot acquisition, directory creation and the command; the skip branch still signals Done *)
Theorem C02_code_conforms :
  skel_eqb skel_Task_Execute exp_Task_Execute
  && skel_eqb skel_Task_anyOutputsExist exp_Task_anyOutputsExist
  && skel_eqb skel_Process_Run exp_Process_Run
  && skel_eqb skel_NewFileIP exp_NewFileIP = true.
Proof. vm_compute. reflexivity. Qed.

(* a task one of whose declared outputs exists initially never gets past the skip check, in any reachable state:
   its temp dir is never made, its command never runs *)
Theorem C02_skip : forall (c : cfg) (f0 : fs) (left0 : nat -> bool), wfc c ->
  forall s t x cnt, reachable c f0 left0 s -> t < nt c -> In x (tout (tk c t)) -> f0 x = Some cnt ->
  past_chk (pcs s t) = false.
Proof. exact Cor.C02_skip. Qed.

(* and the existing file keeps its content in every reachable state *)
Theorem C02_untouched : forall (c : cfg) (f0 : fs) (left0 : nat -> bool), wfc c ->
  forall s t x cnt, reachable c f0 left0 s -> t < nt c -> In x (tout (tk c t)) -> f0 x = Some cnt ->
  fin s x = Some cnt.
Proof. exact Cor.C02_untouched. Qed.

(* re-running a completed workflow: if every task has an output in the initial store, no task ever passes the skip check *)
Theorem C02_rerun_executes_nothing : forall (c : cfg) (f0 : fs) (left0 : nat -> bool), wfc c ->
  (forall t, t < nt c -> exists x cnt, In x (tout (tk c t)) /\ f0 x = Some cnt) ->
  forall s, reachable c f0 left0 s -> forall t, t < nt c -> past_chk (pcs s t) = false.
Proof.
  intros c f0 left0 WF H s R t Ht. destruct (H t Ht) as [x [cnt [Hx Hf]]].
  exact (Cor.C02_skip c f0 left0 WF s t x cnt R Ht Hx Hf).
Qed.

(* in the sequential reference too the outputs of a task that skipped are the files that existed initially (fR x = f0 x:
   the "inputs" of the name); the only sibling that takes [Inv c f0 s], which every reachable state has (Cor.reach_inv),
   in place of [reachable] *)
Theorem C02_skipped_outputs_are_inputs : forall (c : cfg) (f0 : fs), wfc c ->
  forall fR, pre c f0 (nt c) = Some fR ->
  forall s, Inv c f0 s -> forall t, t < nt c -> pcs s t = DoneSkip ->
  forall x, In x (tout (tk c t)) -> fR x = f0 x.
Proof.
  intros c f0 WF fR HR s HI t Ht P x Hx.
  destruct (committed_is_ref c f0 WF fR HR s HI t Ht) as [_ Hs]. exact (Hs P x Hx).
Qed.

(* T1, call cones (DESIGN 11.26, ExpectedCones.v): every function of scipipe reachable from the functions above is one the
   models were compared with. *)
Theorem C02_cone_conforms :
  strs_eqb cone_Task_Execute exp_cone_Task_Execute
  && strs_eqb cone_Task_anyOutputsExist exp_cone_Task_anyOutputsExist
  && strs_eqb cone_Process_Run exp_cone_Process_Run
  && strs_eqb cone_NewFileIP exp_cone_NewFileIP = true.
Proof. vm_compute. reflexivity. Qed.

Print Assumptions C02_code_conforms.
Print Assumptions C02_skip.
Print Assumptions C02_untouched.
Print Assumptions C02_rerun_executes_nothing.
Print Assumptions C02_skipped_outputs_are_inputs.
Print Assumptions C02_cone_conforms.
