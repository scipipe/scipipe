(* C16, wiring operations: the ready flag of a port says exactly "has a remote port"; after the reconnection step of
   runProcs every out-port of a selected process has a consumer -- the sink if nobody else. *)
From Coq Require Import List PeanoNat.
Import ListNotations.

(* out-ports and in-ports are numbered; the sink's in-port is in-port 0 *)
Record wiring := {
  orem : nat -> list nat;      (* out-port -> connected in-ports (OutPort.RemotePorts) *)
  irem : nat -> list nat;      (* in-port -> connected out-ports (InPort.RemotePorts) *)
  oready : nat -> bool;
  iready : nat -> bool
}.

Definition upd {A} (f : nat -> A) (i : nat) (a : A) : nat -> A := fun j => if Nat.eqb j i then a else f j.
Lemma upd_same {A} (f : nat -> A) i a : upd f i a i = a.
Proof. unfold upd. now rewrite Nat.eqb_refl. Qed.
Lemma upd_other {A} (f : nat -> A) i a j : j <> i -> upd f i a j = f j.
Proof. unfold upd. intros H. destruct (Nat.eqb_spec j i); congruence. Qed.

Definition empty : wiring := {| orem := fun _ => []; irem := fun _ => []; oready := fun _ => false; iready := fun _ => false |}.

(* OutPort.To / InPort.From *)
Definition connect (w : wiring) (o i : nat) : wiring :=
  {| orem := upd (orem w) o (i :: orem w o); irem := upd (irem w) i (o :: irem w i);
     oready := upd (oready w) o true; iready := upd (iready w) i true |}.

(* OutPort.Disconnect: removes the in-port from the out-port's remotes; the flag drops when none is left *)
Definition disconnect_out (w : wiring) (o i : nat) : wiring :=
  let r := remove Nat.eq_dec i (orem w o) in
  {| orem := upd (orem w) o r; irem := irem w;
     oready := upd (oready w) o (match r with [] => false | _ => oready w o end); iready := iready w |}.

Definition OutInv (w : wiring) : Prop := forall o, oready w o = true <-> orem w o <> [].
Definition InInv (w : wiring) : Prop := forall i, iready w i = true <-> irem w i <> [].

Lemma empty_inv : OutInv empty /\ InInv empty.
Proof. split; intros x; simpl; (split; [discriminate|congruence]). Qed.

Lemma flag_upd (rd : nat -> bool) (rm : nat -> list nat) k b r :
  (forall x, rd x = true <-> rm x <> []) -> (b = true <-> r <> []) -> forall x, upd rd k b x = true <-> upd rm k r x <> [].
Proof. intros H Hk x. unfold upd. destruct (Nat.eqb x k); auto. Qed.

Lemma connect_inv w o i : OutInv w /\ InInv w -> OutInv (connect w o i) /\ InInv (connect w o i).
Proof. intros [HO HI]. split; intros x; apply flag_upd; auto; (split; [discriminate|reflexivity]). Qed.

Lemma disconnect_inv w o i : OutInv w /\ InInv w -> OutInv (disconnect_out w o i) /\ InInv (disconnect_out w o i).
Proof.
  intros [HO HI]. split; [|exact HI]. intros x. apply flag_upd; auto.
  destruct (remove Nat.eq_dec i (orem w o)) eqn:E; [split; [discriminate|congruence]|].
  split; [discriminate|]. intros _. apply HO. intros C. rewrite C in E. discriminate.
Qed.

Lemma fold_left_inv {A B} (f : A -> B -> A) (P : A -> Prop) : (forall a b, P a -> P (f a b)) ->
  forall l a, P a -> P (fold_left f l a).
Proof. intros H. induction l; simpl; auto. Qed.

Inductive wop := Connect (o i : nat) | Disconnect (o i : nat).
Definition apply_op (w : wiring) (op : wop) : wiring :=
  match op with Connect o i => connect w o i | Disconnect o i => disconnect_out w o i end.

Theorem ready_flag_invariant (ops : list wop) : let w := fold_left apply_op ops empty in OutInv w /\ InInv w.
Proof.
  apply (fold_left_inv apply_op (fun w => OutInv w /\ InInv w)); [|exact empty_inv].
  intros w [o i|o i]; [apply connect_inv|apply disconnect_inv].
Qed.

(* reconnectDeadEndConnections for one out-port: drop the consumers that are not selected, then, if nothing is left,
   connect the port to the sink (in-port 0) *)
Definition reconnect_port (sel : nat -> bool) (w : wiring) (o : nat) : wiring :=
  let w1 := fold_left (fun (w : wiring) (i : nat) => if sel i then w else disconnect_out w o i) (orem w o) w in
  if oready w1 o then w1 else connect w1 o 0.

Theorem dangling_drained (sel : nat -> bool) (w : wiring) (o : nat) : OutInv w -> InInv w ->
  let w' := reconnect_port sel w o in oready w' o = true /\ orem w' o <> [] /\ OutInv w' /\ InInv w'.
Proof.
  intros HO HI. unfold reconnect_port.
  set (w1 := fold_left _ (orem w o) w).
  assert (I1 : OutInv w1 /\ InInv w1).
  { apply (fold_left_inv _ (fun w => OutInv w /\ InInv w)); auto. intros a i. destruct (sel i); auto using disconnect_inv. }
  destruct (oready w1 o) eqn:R.
  - split; [exact R|]. split; [apply I1; exact R|exact I1].
  - split; [simpl; apply upd_same|]. split; [simpl; rewrite upd_same; discriminate|]. apply connect_inv, I1.
Qed.
