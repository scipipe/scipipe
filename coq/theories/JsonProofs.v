(* Round trip of the audit-record schema at token level, and of string escaping (C11). *)
From Coq Require Import List Ascii String Arith Lia BinNat.
Import ListNotations.
From SP Require Import Str PathLex Json.

Lemma tpairs_more k v kv l : tpairs ((k, v) :: kv :: l) = TStr k :: TColon :: TStr v :: TComma :: tpairs (kv :: l).
Proof. reflexivity. Qed.

Lemma ppairs_tpairs l : l <> [] -> forall rest, ppairs (tpairs l ++ TRBrace :: rest) = Some (l, rest).
Proof.
  induction l as [|[k v] l IH]; intros Hne rest; [congruence|].
  destruct l as [|kv l].
  - reflexivity.
  - rewrite tpairs_more. cbn [app ppairs]. rewrite IH by discriminate. reflexivity.
Qed.

Lemma psmap_tsmap l rest : psmap (tsmap l ++ rest) = Some (l, rest).
Proof.
  (* with no entry, one entry or two entries in view, psmap's test for "{}" computes *)
  unfold tsmap. destruct l as [|[k v] [|kv l]]; [reflexivity..|].
  cbn [app]. rewrite <- app_assoc. apply (ppairs_tpairs ((k, v) :: kv :: l)). discriminate.
Qed.

Lemma tups_more f k (u : jrec) ku r : tups f ((k, u) :: ku :: r) = TStr k :: TColon :: f u ++ TComma :: tups f (ku :: r).
Proof. reflexivity. Qed.

(* The head of a record is a list of fields "key": value, each followed by a comma; a value is a string, a string map or a
   number.  The printers (ptoks here, jrender in JsonBytes) write the fields out one by one; what is said about a record's
   head is said once about a field list (ftoks_length, JsonBytes.lexes_fields) and then about this one. *)
Inductive jval := VStr (s : str) | VMap (l : list (str * str)) | VNum (neg : bool) (n : nat).

Definition fields (h : jhead) : list (string * jval) :=
  [("ID", VStr (h_id h)); ("ProcessName", VStr (h_proc h)); ("Command", VStr (h_cmd h)); ("Params", VMap (h_params h));
   ("Tags", VMap (h_tags h)); ("StartTime", VStr (h_start h)); ("FinishTime", VStr (h_finish h));
   ("ExecTimeNS", VNum (h_neg h) (h_exec h)); ("OutFiles", VMap (h_outs h))]%string.

Definition vtoks (v : jval) : list jtok :=
  match v with VStr s => [TStr s] | VMap l => tsmap l | VNum neg n => [TNum neg n] end.

Fixpoint ftoks (fs : list (string * jval)) (tail : list jtok) : list jtok :=
  match fs with [] => tail | (k, v) :: fs' => tkey k ++ vtoks v ++ TComma :: ftoks fs' tail end.

Definition head_toks (h : jhead) (tail : list jtok) : list jtok :=
  TLBrace :: ftoks (fields h) (tkey "Upstream" ++ TLBrace :: tail).

(* ptoks goes over the Upstream entries with a local fix, which no statement can refer to; Json.tups is that loop as a
   function of its own, and this lemma says so (jrender_unfold in JsonBytes does the same for jrender and rups) *)
Lemma ptoks_unfold h up : ptoks (mkrec h up) = head_toks h (tups ptoks up ++ [TRBrace; TRBrace]).
Proof.
  assert (E : tups ptoks up = (fix ups (l : list (str * jrec)) : list jtok :=
                                match l with
                                | [] => []
                                | (k, u) :: r => match r with
                                                 | [] => TStr k :: TColon :: ptoks u
                                                 | _ => TStr k :: TColon :: ptoks u ++ TComma :: ups r
                                                 end
                                end) up).
  { induction up as [|[k u] up IH]; [reflexivity|]. destruct up as [|ku up]; [reflexivity|].
    rewrite tups_more, IH. reflexivity. }
  rewrite E. reflexivity.
Qed.

Lemma ftoks_app fs tail rest : ftoks fs tail ++ rest = ftoks fs (tail ++ rest).
Proof.
  induction fs as [|[k v] fs IH]; [reflexivity|].
  cbn [ftoks]. rewrite <- !app_assoc. cbn [app]. rewrite IH. reflexivity.
Qed.

Lemma head_toks_app h tail rest : head_toks h tail ++ rest = head_toks h (tail ++ rest).
Proof. unfold head_toks. cbn [app]. rewrite ftoks_app. reflexivity. Qed.

Lemma ftoks_length fs tail : length tail <= length (ftoks fs tail).
Proof.
  induction fs as [|[k v] fs IH]; [reflexivity|].
  cbn [ftoks]. rewrite !app_length. cbn [length]. lia.
Qed.

Lemma pups_tups (child : list jtok -> option (jrec * list jtok)) up :
  up <> [] ->
  (forall k u, In (k, u) up -> forall rest, child (ptoks u ++ rest) = Some (u, rest)) ->
  forall n rest, length (tups ptoks up ++ TRBrace :: rest) <= n -> pups child n (tups ptoks up ++ TRBrace :: rest) = Some (up, rest).
Proof.
  induction up as [|[k u] up IH]; intros Hne Hc n rest Hn; [congruence|].
  destruct up as [|ku up].
  - destruct n as [|n]; [inversion Hn|]. cbn [tups app pups].
    rewrite (Hc k u (or_introl eq_refl)). reflexivity.
  - rewrite tups_more in *. cbn [app] in *. rewrite <- app_assoc in *. cbn [app] in *.
    destruct n as [|n]; [inversion Hn|]. cbn [pups].
    rewrite (Hc k u (or_introl eq_refl)). cbn [bind snd fst].
    rewrite IH; [reflexivity|discriminate| |].
    + intros k' u' Hin. apply (Hc k' u'). right. exact Hin.
    + cbn [length] in Hn. rewrite app_length in Hn. cbn [length] in Hn. lia.
Qed.

Lemma expect_key_tkey (k : string) r : expect_key k (tkey k ++ r) = Some r.
Proof. unfold expect_key, tkey. cbn [app]. now rewrite str_eqb_refl. Qed.

Lemma bind_psmap {B} l rest (f : list (str * str) * list jtok -> option B) r :
  f (l, rest) = r -> bind (psmap (tsmap l ++ rest)) f = r.
Proof. rewrite psmap_tsmap. exact (fun E => E). Qed.

(* phead runs by computation over the fixed keys and stops at the three string maps, which psmap_tsmap reads: applying
   bind_psmap makes the unifier run phead up to the next map *)
Lemma phead_head h tail : phead (head_toks h tail) = Some (h, tail).
Proof.
  apply bind_psmap. cbn [fst snd].
  apply bind_psmap. cbn [fst snd].
  apply bind_psmap. cbn [fst snd].
  destruct h. reflexivity.
Qed.

Section JrecInd.
Variable P : jrec -> Prop.
Hypothesis H : forall h up, Forall (fun ku => P (snd ku)) up -> P (mkrec h up).
Fixpoint jrec_ind' (r : jrec) : P r :=
  match r with
  | JRec id proc cmd params tags start finish neg exec outs up =>
    H (Build_jhead id proc cmd params tags start finish neg exec outs) up
      ((fix go (l : list (str * jrec)) : Forall (fun ku => P (snd ku)) l :=
          match l with [] => Forall_nil _ | x :: xs => Forall_cons _ (jrec_ind' (snd x)) (go xs) end) up)
  end.
End JrecInd.

Lemma height_child h up k u : In (k, u) up -> height u < height (mkrec h up).
Proof.
  unfold mkrec. cbn [height]. intros Hin. apply Nat.lt_succ_r.
  induction up as [|[k' u'] up IH]; [destruct Hin|]. cbn [fold_right snd].
  destruct Hin as [E|Hin]; [injection E as <- <-; apply Nat.le_max_l|].
  etransitivity; [apply IH; exact Hin|apply Nat.le_max_r].
Qed.

(* C11_roundtrip_tokens *)
Theorem prec_ptoks : forall r fuel rest, height r <= fuel -> prec fuel (ptoks r ++ rest) = Some (r, rest).
Proof.
  induction r as [h up IH] using jrec_ind'.
  intros fuel rest Hf. destruct fuel as [|f]; [inversion Hf|].
  assert (E : phead (ptoks (mkrec h up) ++ rest) = Some (h, tups ptoks up ++ TRBrace :: TRBrace :: rest)).
  { rewrite ptoks_unfold, head_toks_app, <- app_assoc. apply phead_head. }
  destruct up as [|[k u] up']; cbn [prec]; rewrite E; [reflexivity|].
  rewrite pups_tups.
  - (* the Upstream object is not empty: its first token is a key, which shows once up' is split *)
    destruct up' as [|[k2 u2] up2]; reflexivity.
  - discriminate.
  - (* every entry reads back: the induction hypothesis, the entry's height being below the fuel *)
    intros k' u' Hin rest'. apply (proj1 (Forall_forall _ _) IH (k', u') Hin).
    apply Nat.lt_succ_r, (Nat.lt_le_trans _ _ _ (height_child h _ k' u' Hin) Hf).
  - (* the fuel of pups: prec gives it the number of tokens *) reflexivity.
Qed.

Definition is_ascii7 (c : ascii) : Prop := match c with Ascii _ _ _ _ _ _ _ b7 => b7 = false end.

Lemma ascii7_lt c : is_ascii7 c -> nat_of_ascii c < 128.
Proof.
  destruct c as [b0 b1 b2 b3 b4 b5 b6 b7]. simpl. intros ->.
  unfold nat_of_ascii, N_of_ascii, N_of_digits.
  assert (B : forall b : bool, ((if b then 1 else 0) <= 1)%N) by (intros []; lia).
  pose proof (B b0). pose proof (B b1). pose proof (B b2). pose proof (B b3). pose proof (B b4). pose proof (B b5).
  pose proof (B b6).
  lia.
Qed.

Definition short_escapes : list (ascii * ascii) :=
  [(dq, dq); (bs, bs); ("/", "/"); ("n", ascii_of_nat 10); ("r", ascii_of_nat 13); ("t", ascii_of_nat 9);
   ("b", ascii_of_nat 8); ("f", ascii_of_nat 12)]%char.

(* A spelling of the character c inside a JSON string literal: c itself, a two-character escape, or \uXXXX.  The printer
   (escape_char) emits only spellings; both readers (unescape here, the lexer's string modes in JsonBytes) read every
   spelling back as c.  "\b" and "\f" are what encoding/json of the Go installed here (1.23.5, encode.go:980-983) emits; a
   version that writes \u0008 / \u000c emits spellings too (u00_spells), so the round trips do not depend on it. *)
Inductive spells (c : ascii) : str -> Prop :=
| sp_plain : c <> dq -> c <> bs -> spells c [c]
| sp_short e : In (e, c) short_escapes -> spells c [bs; e]
| sp_hex h1 h2 h3 h4 d1 d2 d3 d4 : unhex h1 = Some d1 -> unhex h2 = Some d2 -> unhex h3 = Some d3 -> unhex h4 = Some d4 ->
    ((d1 * 16 + d2) * 16 + d3) * 16 + d4 = nat_of_ascii c -> nat_of_ascii c < 128 -> spells c [bs; "u"%char; h1; h2; h3; h4].

Lemma unhex_hexdigit k : k < 16 -> unhex (hexdigit k) = Some k.
Proof. intros H. do 16 (destruct k as [|k]; [reflexivity|]). lia. Qed.

Lemma u00_spells c : nat_of_ascii c < 128 -> spells c (u00 (nat_of_ascii c)).
Proof.
  intros H. assert (Z : unhex "0" = Some 0) by reflexivity.
  apply (sp_hex c _ _ _ _ 0 0 (nat_of_ascii c / 16) (nat_of_ascii c mod 16) Z Z).
  - apply unhex_hexdigit, Nat.div_lt_upper_bound; [discriminate|].
    apply (Nat.lt_le_trans _ _ _ H), Nat.leb_le. reflexivity.
  - apply unhex_hexdigit, Nat.mod_upper_bound. discriminate.
  - rewrite Nat.mul_comm. symmetry. apply Nat.div_mod. discriminate.
  - exact H.
Qed.

Lemma escape_char_spells c : is_ascii7 c -> spells c (escape_char c).
Proof.
  intros Hc. apply ascii7_lt in Hc. unfold escape_char. cbv zeta.
  (* one test of the chain: the i-th short escape stands for the character with code k *)
  assert (Short : forall i k e X, nth_error short_escapes i = Some (e, ascii_of_nat k) -> (nat_of_ascii c <> k -> spells c X) ->
                              spells c (if nat_of_ascii c =? k then [bs; e] else X)).
  { intros i k e X Hi HX. destruct (Nat.eqb_spec (nat_of_ascii c) k) as [<-|N]; [|exact (HX N)].
    apply sp_short. rewrite ascii_nat_embedding in Hi. exact (nth_error_In _ _ Hi). }
  assert (Hex : forall (b : bool) X, spells c X -> spells c (if b then u00 (nat_of_ascii c) else X)).
  { intros [|] X HX; [apply u00_spells, Hc|exact HX]. }
  apply (Short 0 34 dq); [reflexivity|intros N1].
  apply (Short 1 92 bs); [reflexivity|intros N2].
  (* index 2, "/", is skipped: the printer never emits \/ *)
  apply (Short 3 10 "n"%char); [reflexivity|intros _].
  apply (Short 4 13 "r"%char); [reflexivity|intros _].
  apply (Short 5 9 "t"%char); [reflexivity|intros _].
  apply (Short 6 8 "b"%char); [reflexivity|intros _].
  apply (Short 7 12 "f"%char); [reflexivity|intros _].
  apply Hex, Hex.
  apply sp_plain; intros E; [apply N1|apply N2]; rewrite E; reflexivity.
Qed.

(* the two tests both readers (unescape, the lexer's string mode) begin with *)
Lemma not_special {A} c (x y z : A) : c <> dq -> c <> bs -> (if Ascii.eqb c dq then x else if Ascii.eqb c bs then y else z) = z.
Proof. intros Hq Hb. now rewrite (proj2 (Ascii.eqb_neq _ _) Hq), (proj2 (Ascii.eqb_neq _ _) Hb). Qed.

Lemma match_some {A B} {o : option A} {a} {f : A -> B} {n b : B} :
  o = Some a -> f a = b -> match o with Some x => f x | None => n end = b.
Proof. intros -> E. exact E. Qed.

Lemma unescape_short : Forall (fun ec => forall f tail, unescape (S f) (bs :: fst ec :: tail) =
  match unescape f tail with Some (t, r) => Some (snd ec :: t, r) | None => None end) short_escapes.
Proof. repeat constructor. Qed.

Lemma unescape_spells c e : spells c e -> forall f tail,
  unescape (S f) (e ++ tail) = match unescape f tail with Some (t, r) => Some (c :: t, r) | None => None end.
Proof.
  intros [Hq Hb|e' Hin|h1 h2 h3 h4 d1 d2 d3 d4 H1 H2 H3 H4 V Hn] f tail.
  - exact (not_special c _ _ _ Hq Hb).
  - exact (proj1 (Forall_forall _ _) unescape_short (e', c) Hin f tail).
  - simpl. apply (match_some H1), (match_some H2), (match_some H3), (match_some H4).
    rewrite V, (proj2 (Nat.ltb_lt _ _) Hn), ascii_nat_embedding. reflexivity.
Qed.

(* C11_roundtrip_strings *)
Theorem unescape_escape : forall s rest, Forall is_ascii7 s ->
  unescape (S (length s)) (escape s ++ dq :: rest) = Some (s, rest).
Proof.
  induction s as [|c s IH]; intros rest Hs.
  - reflexivity.
  - inversion Hs as [|? ? Hc Hs']. cbn [length]. change (escape (c :: s)) with (escape_char c ++ escape s).
    rewrite <- app_assoc, (unescape_spells c _ (escape_char_spells c Hc)), (IH rest Hs'). reflexivity.
Qed.

(* the record of the worked example at byte level (JsonBytes.ascii_rec_ex, C11_roundtrip_bytes_example) *)
Definition ex_leaf := JRec (s2l "id0") [] [] [] [] (s2l "0001-01-01T00:00:00Z") (s2l "0001-01-01T00:00:00Z") true 1 [] [].
Definition ex_rec := JRec (s2l "id1") (s2l "proc") (s2l "echo ""a<b>&"" > x\y") [(s2l "k", s2l "v"); (s2l "k2", [ascii_of_nat 10; ascii_of_nat 1])] []
                          (s2l "2026-01-01T10:00:00.5Z") (s2l "2026-01-01T10:00:01Z") false 1234 [(s2l "o", s2l "x")] [(s2l "in.txt", ex_leaf); (s2l "b.txt", ex_leaf)].
