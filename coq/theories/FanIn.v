(* Fan-in into several in-ports of one process (finding D21, DESIGN 11.20).
   Producers send the outputs of a task to their out-ports one after the other, each send blocking while the in-port's
   channel is full (Process.Run: `for oname, oip := range OutIPs { Out(oname).Send(oip) }`); a consumer receives on its
   in-ports one after the other, each receive blocking while the channel is empty (receiveOnInPorts); the order within a
   round is whatever Go's map iteration gives -- a new one in every round.  When several producers feed the same in-ports
   these two sequential disciplines can wait for each other.  Every producer sends to all [nch] channels once per round
   (`ispermb (nch s) next`).  Closing is not modelled: [finished] is "all sent, all queues empty", and the consumer ends
   blocked in a next round.
   With capacity >= number of producers no reachable state is stuck (`fanin_no_deadlock`); with less it is false
   (`fanin_deadlock`: 2 producers, 3 channels, capacity 1, as on the real library with SCIPIPE_BUFSIZE=1). *)
From Coq Require Import List Lia Bool PeanoNat.
From SP Require Lib.
Import ListNotations.

(* A producer: [total] rounds in all, [left] of them not yet completed (the current one included), [ptodo] the channels
   it has still to send to in the current round.  The consumer: [crounds] rounds completed, [ctodo] the channels it has
   still to receive from in the current round.  [q ch]: the items waiting in channel [ch]; [nch] channels, each of
   capacity [cap]. *)
Record prod := { total : nat; left : nat; ptodo : list nat }.
Record st := { nch : nat; prods : list prod; ctodo : list nat; crounds : nat; q : nat -> nat; cap : nat }.

(* an order: every channel 0 .. m-1 exactly once (executable) *)
Fixpoint nodupb (l : list nat) : bool :=
  match l with [] => true | a :: r => negb (existsb (Nat.eqb a) r) && nodupb r end.
Definition ispermb (m : nat) (l : list nat) : bool :=
  Nat.eqb (length l) m && forallb (fun ch => Nat.ltb ch m) l && nodupb l.

Inductive act := Send (i : nat) (next : list nat) | Recv (next : list nat).

Definition updf (f : nat -> nat) (k v : nat) : nat -> nat := fun j => if Nat.eqb j k then v else f j.

Fixpoint updl (i : nat) (x : prod) (l : list prod) : list prod :=
  match l, i with [], _ => [] | _ :: r, 0 => x :: r | y :: r, S j => y :: updl j x r end.

Definition step (s : st) (a : act) : option st :=
  match a with
  | Send i next =>
      match nth_error (prods s) i with
      | Some p =>
          match left p, ptodo p with
          | S k, ch :: rest =>
              if Nat.ltb (q s ch) (cap s)
              then match rest with
                   | [] => if ispermb (nch s) next
                           then Some {| nch := nch s; prods := updl i {| total := total p; left := k; ptodo := next |} (prods s);
                                        ctodo := ctodo s; crounds := crounds s; q := updf (q s) ch (S (q s ch)); cap := cap s |}
                           else None
                   | _ => Some {| nch := nch s; prods := updl i {| total := total p; left := S k; ptodo := rest |} (prods s);
                                  ctodo := ctodo s; crounds := crounds s; q := updf (q s) ch (S (q s ch)); cap := cap s |}
                   end
              else None                                                    (* the channel is full: the send blocks *)
          | _, _ => None
          end
      | None => None
      end
  | Recv next =>
      match ctodo s with
      | ch :: rest =>
          match q s ch with
          | S n =>
              match rest with
              | [] => if ispermb (nch s) next
                      then Some {| nch := nch s; prods := prods s; ctodo := next; crounds := S (crounds s); q := updf (q s) ch n; cap := cap s |}
                      else None
              | _ => Some {| nch := nch s; prods := prods s; ctodo := rest; crounds := crounds s; q := updf (q s) ch n; cap := cap s |}
              end
          | 0 => None                                                      (* the channel is empty: the receive blocks *)
          end
      | [] => None
      end
  end.

Fixpoint run (s : st) (l : list act) : option st :=
  match l with [] => Some s | a :: r => match step s a with Some s' => run s' r | None => None end end.

(* [ps]: per producer its first order and its number of rounds; [co]: the consumer's first order *)
Definition init (m : nat) (ps : list (list nat * nat)) (co : list nat) (cp : nat) : st :=
  {| nch := m; prods := map (fun x => {| total := snd x; left := snd x; ptodo := fst x |}) ps;
     ctodo := co; crounds := 0; q := fun _ => 0; cap := cp |}.

Definition isperm (m : nat) (l : list nat) : Prop := NoDup l /\ forall ch, In ch l <-> ch < m.

Lemma nodupb_NoDup l : nodupb l = true <-> NoDup l.
Proof. exact (Lib.nodupb_NoDup l). Qed.

Lemma ispermb_isperm m l : ispermb m l = true -> isperm m l.
Proof.
  unfold ispermb. rewrite !andb_true_iff, Nat.eqb_eq, forallb_forall, nodupb_NoDup. intros [[L B] N].
  assert (B' : forall ch, In ch l -> ch < m) by (intros ch H; apply Nat.ltb_lt, B, H).
  split; [exact N|]. intros ch. split; [apply B'|]. intros Hlt.
  (* a duplicate-free list of m numbers below m has all of them *)
  apply (NoDup_length_incl N (l' := seq 0 m)); [rewrite seq_length; lia| |apply in_seq; lia].
  intros x Hx. apply B' in Hx. apply in_seq. lia.
Qed.

Lemma ispermb_seq m : ispermb m (seq 0 m) = true.
Proof.
  unfold ispermb. rewrite seq_length, Nat.eqb_refl. apply andb_true_iff. split; [|apply nodupb_NoDup, seq_NoDup].
  apply forallb_forall. intros x Hx. apply Nat.ltb_lt. apply in_seq in Hx. lia.
Qed.

Lemma isperm_length m l : isperm m l -> length l = m.
Proof.
  intros [N H]. rewrite <- (seq_length m 0).
  apply Nat.le_antisymm; apply NoDup_incl_length; [exact N| |apply seq_NoDup|]; intros x; rewrite in_seq, H; lia.
Qed.

(* [ind ch todo]: 1 when [ch] has had its turn in the current round (it is no longer in [todo]), otherwise 0;
   [sent p ch], [rcvd s ch]: the items producer [p] has sent to [ch], the consumer has received from [ch], in all rounds *)
Definition ind (ch : nat) (todo : list nat) : nat := if in_dec Nat.eq_dec ch todo then 0 else 1.
Definition sent (p : prod) (ch : nat) : nat := (total p - left p) + ind ch (ptodo p).
Definition rcvd (s : st) (ch : nat) : nat := crounds s + ind ch (ctodo s).
Fixpoint sumsent (l : list prod) (ch : nat) : nat := match l with [] => 0 | p :: r => sent p ch + sumsent r ch end.

(* what is still to do in the current round: distinct channels, not empty; a full order when nothing is left to do *)
Definition todo_ok (m : nat) (l : list nat) : Prop := NoDup l /\ (forall ch, In ch l -> ch < m) /\ l <> [].
Definition pok (m : nat) (p : prod) : Prop := todo_ok m (ptodo p) /\ left p <= total p /\ (left p = 0 -> isperm m (ptodo p)).

(* [m] is the number of channels: the state carries it as [nch s] ([i_n]), the lemmas speak of [m] *)
Record Inv (m : nat) (s : st) : Prop := {
  i_m : 1 <= m;
  i_n : nch s = m;
  i_ct : todo_ok m (ctodo s);
  i_p : Forall (pok m) (prods s);
  i_q : forall ch, ch < m -> q s ch + rcvd s ch = sumsent (prods s) ch
}.

Definition wf_in (m : nat) (ps : list (list nat * nat)) (co : list nat) : Prop :=
  1 <= m /\ isperm m co /\ Forall (fun x => isperm m (fst x)) ps.

Lemma ind_in ch l : In ch l -> ind ch l = 0.
Proof. unfold ind. destruct (in_dec Nat.eq_dec ch l); tauto. Qed.
Lemma ind_notin ch l : ~ In ch l -> ind ch l = 1.
Proof. unfold ind. destruct (in_dec Nat.eq_dec ch l); tauto. Qed.
Lemma ind_le1 ch l : ind ch l <= 1.
Proof. unfold ind. destruct (in_dec Nat.eq_dec ch l); lia. Qed.
Lemma ind_cons ch a r : ind ch (a :: r) = if Nat.eqb ch a then 0 else ind ch r.
Proof.
  destruct (Nat.eqb_spec ch a) as [->|Hne]; [apply ind_in; left; reflexivity|].
  unfold ind. destruct (in_dec Nat.eq_dec ch r) as [H|H]; [apply ind_in; right; exact H|apply ind_notin; intros [E|E]; congruence].
Qed.

Lemma isperm_todo m l : 1 <= m -> isperm m l -> todo_ok m l.
Proof.
  intros Hm [N H]. split; [exact N|]. split; [intros ch Hc; apply H; exact Hc|].
  intros E. subst. destruct (proj2 (H 0) ltac:(lia)).
Qed.

Lemma init_inv m ps co cp : wf_in m ps co -> Inv m (init m ps co cp).
Proof.
  intros [Hm [Hc Hp]]. constructor; simpl; auto.
  - apply isperm_todo; auto.
  - apply Forall_map. revert Hp. apply Forall_impl. intros x Hx.
    unfold pok; simpl. split; [apply isperm_todo; auto|]. split; [lia|]. intros _. exact Hx.
  - intros ch Hch. unfold rcvd. rewrite ind_in by (apply Hc; exact Hch).
    induction Hp as [|x r Hx Hr IH]; simpl; auto. rewrite <- IH. unfold sent; simpl.
    rewrite ind_in by (apply Hx; exact Hch). lia.
Qed.

(* Producers and consumer walk through their rounds in the same way: the current channel is done; if others are left in this
   round ([rest]) they are what is to do, otherwise the round is over and the next one starts with its order, which the
   action carries ([next]).  [turn rest e x]: [e] when the round is over, [x] otherwise. *)
Definition turn {A} (rest : list nat) (e x : A) : A := match rest with [] => e | _ => x end.

Definition adv (p : prod) (k : nat) (rest next : list nat) : prod :=
  {| total := total p; left := turn rest k (S k); ptodo := turn rest next rest |}.

(* one rule for Send, one for Recv: the end of a round, a branch of its own in [step], is folded in by [turn] *)
Inductive Step (s : st) : act -> st -> Prop :=
| StepSend i next p k ch rest : nth_error (prods s) i = Some p -> left p = S k -> ptodo p = ch :: rest -> q s ch < cap s ->
    (rest = [] -> isperm (nch s) next) ->
    Step s (Send i next) {| nch := nch s; prods := updl i (adv p k rest next) (prods s); ctodo := ctodo s; crounds := crounds s;
                            q := updf (q s) ch (S (q s ch)); cap := cap s |}
| StepRecv next ch rest n : ctodo s = ch :: rest -> q s ch = S n -> (rest = [] -> isperm (nch s) next) ->
    Step s (Recv next) {| nch := nch s; prods := prods s; ctodo := turn rest next rest; crounds := turn rest (S (crounds s)) (crounds s);
                          q := updf (q s) ch n; cap := cap s |}.

Lemma step_Step {s a s'} : step s a = Some s' -> Step s a s'.
Proof.
  destruct a as [i next|next]; simpl.
  - (* Send *)
    destruct (nth_error (prods s) i) as [p|] eqn:Hi; [|discriminate].
    destruct (left p) as [|k] eqn:Hl; [discriminate|]. destruct (ptodo p) as [|ch rest] eqn:Ht; [discriminate|].
    destruct (Nat.ltb_spec (q s ch) (cap s)) as [Hc|]; [|discriminate].
    destruct rest as [|c2 r2].
    + (* end of the round *) destruct (ispermb (nch s) next) eqn:Hp; [|discriminate]. intros [= <-].
      apply (StepSend s i next p k ch _ Hi Hl Ht Hc). intros _. exact (ispermb_isperm _ _ Hp).
    + (* mid-round *) intros [= <-]. apply (StepSend s i next p k ch _ Hi Hl Ht Hc). discriminate.
  - (* Recv *)
    destruct (ctodo s) as [|ch rest] eqn:Ht; [discriminate|]. destruct (q s ch) as [|n] eqn:Hq; [discriminate|].
    destruct rest as [|c2 r2].
    + (* end of the round *) destruct (ispermb (nch s) next) eqn:Hp; [|discriminate]. intros [= <-].
      apply (StepRecv s next ch _ n Ht Hq). intros _. exact (ispermb_isperm _ _ Hp).
    + (* mid-round *) intros [= <-]. apply (StepRecv s next ch _ n Ht Hq). discriminate.
Qed.

Lemma turn_todo {m ch0 rest next} : 1 <= m -> todo_ok m (ch0 :: rest) -> (rest = [] -> isperm m next) -> todo_ok m (turn rest next rest).
Proof.
  intros Hm [N [B _]] Hn. destruct rest as [|c2 r2]; [apply isperm_todo; auto|].
  apply NoDup_cons_iff in N. split; [apply N|]. split; [intros ch Hc; apply B; right; exact Hc|discriminate].
Qed.

(* the count of a channel goes up by one for the current channel and stays for the others *)
Lemma turn_ind {m ch0 rest next ch} n : NoDup (ch0 :: rest) -> (rest = [] -> isperm m next) -> ch < m ->
  turn rest (S n) n + ind ch (turn rest next rest) = n + ind ch (ch0 :: rest) + (if Nat.eqb ch ch0 then 1 else 0).
Proof.
  intros N Hn Hch. apply NoDup_cons_iff in N. destruct N as [Hnot _]. rewrite ind_cons. destruct rest as [|c2 r2]; simpl.
  - (* the round is over: every channel has had its turn, and none in the round that starts *)
    rewrite ind_in by (apply (Hn eq_refl), Hch). destruct (Nat.eqb ch ch0); [|rewrite ind_notin by (intros [])]; lia.
  - destruct (Nat.eqb_spec ch ch0) as [->|_]; [rewrite ind_notin by exact Hnot|]; lia.
Qed.

Lemma adv_ok m p k ch0 rest next : 1 <= m -> pok m p -> left p = S k -> ptodo p = ch0 :: rest -> (rest = [] -> isperm m next) ->
  pok m (adv p k rest next) /\ forall ch, ch < m -> sent (adv p k rest next) ch = sent p ch + (if Nat.eqb ch ch0 then 1 else 0).
Proof.
  intros Hm [T [L Z]] Hl Ht Hn. rewrite Ht in T. split.
  - split; [exact (turn_todo Hm T Hn)|]. destruct rest; simpl; [|split; [lia|discriminate]]. split; [lia|auto].
  - intros ch Hch. pose proof (turn_ind (total p - S k) (proj1 T) Hn Hch). unfold sent. rewrite Hl, Ht.
    destruct rest; simpl in *; lia.
Qed.

(* [F] is any of the sums over the producers: [fun l => sumsent l ch], [psum m], [tsum] *)
Lemma sum_updl (F : list prod -> nat) (f : prod -> nat) : (forall p r, F (p :: r) = f p + F r) ->
  forall {l i p} p', nth_error l i = Some p -> F (updl i p' l) + f p = F l + f p'.
Proof.
  intros FS. induction l as [|x l IH]; intros [|i] p p' H; simpl; try discriminate; rewrite !FS.
  - injection H as ->. lia.
  - specialize (IH i p p' H). lia.
Qed.

Lemma forall_updl (P : prod -> Prop) l : forall i p', Forall P l -> P p' -> Forall P (updl i p' l).
Proof.
  induction l as [|x l IH]; intros [|i] p' F Hp; inversion F; constructor; auto.
Qed.

Lemma step_inv m s a s' : Inv m s -> step s a = Some s' -> Inv m s'.
Proof.
  intros [Hm Hn Hct Hp Hq] H.
  destruct (step_Step H) as [i next p k ch0 rest Hi Hl Ht _ Hperm|next ch0 rest n Ht Hq0 Hperm]; rewrite Hn in Hperm.
  - (* Send *)
    destruct (adv_ok m p k ch0 rest next Hm (Lib.Forall_nth_error _ _ _ _ Hp Hi) Hl Ht Hperm) as [Pk' Hs].
    constructor; auto.
    + apply forall_updl; auto.
    + intros ch Hch. pose proof (sum_updl (fun l => sumsent l ch) (fun p => sent p ch) (fun _ _ => eq_refl) (adv p k rest next) Hi) as E.
      cbv beta in E. rewrite (Hs ch Hch) in E.
      specialize (Hq ch Hch). unfold rcvd in *. simpl. unfold updf. destruct (Nat.eqb_spec ch ch0) as [->|Hne]; lia.
  - (* Recv *)
    rewrite Ht in Hct. constructor; auto.
    + exact (turn_todo Hm Hct Hperm).
    + intros ch Hch. pose proof (turn_ind (crounds s) (proj1 Hct) Hperm Hch) as E.
      specialize (Hq ch Hch). unfold rcvd in *. simpl. rewrite Ht in Hq. unfold updf.
      destruct (Nat.eqb_spec ch ch0) as [->|Hne]; lia.
Qed.

Definition finished (m : nat) (s : st) : Prop := Forall (fun p => left p = 0) (prods s) /\ forall ch, ch < m -> q s ch = 0.

(* a producer is at most one item further on one channel than on another, and not further on one it has still to do *)
Lemma sumsent_diff l a b : sumsent l a <= sumsent l b + length l /\
  forall p, In p l -> In a (ptodo p) -> sumsent l a < sumsent l b + length l.
Proof.
  induction l as [|x l [IH S]]; simpl; [split; [lia|contradiction]|].
  unfold sent. pose proof (ind_le1 a (ptodo x)). split; [lia|].
  intros p [->|Hin] Ha; [rewrite (ind_in a _ Ha)|specialize (S p Hin Ha)]; lia.
Qed.

Fixpoint tsum (l : list prod) : nat := match l with [] => 0 | p :: r => total p + tsum r end.

Lemma sumsent_tsum {m l ch} : ch < m -> Forall (pok m) l ->
  sumsent l ch <= tsum l /\ (Forall (fun p => left p = 0) l -> tsum l <= sumsent l ch).
Proof.
  intros Hch F. induction F as [|p l [_ [Lp Zp]] F [IH Z]]; simpl; [split; lia|]. unfold sent. split.
  - destruct (Nat.eq_dec (left p) 0) as [E|E]; [rewrite ind_in by (apply (Zp E), Hch)|pose proof (ind_le1 ch (ptodo p))]; lia.
  - intros Z'. inversion Z' as [|? ? E Zl]. specialize (Z Zl). lia.
Qed.

Theorem fanin_progress m s : Inv m s -> length (prods s) <= cap s -> finished m s \/ exists a, step s a <> None.
Proof.
  intros [Hm Hn [_ [B Ne]] Hp Hq] Hcap.
  destruct (ctodo s) as [|c' rest] eqn:Ht; [congruence|].
  assert (Hc' : c' < m) by (apply B; left; reflexivity).
  destruct (q s c') as [|n] eqn:Q'.
  2: { right. exists (Recv (seq 0 m)). simpl. rewrite Ht, Q'. destruct rest; [rewrite Hn, ispermb_seq|]; discriminate. }
  pose proof (Hq c' Hc') as E'. unfold rcvd in *. rewrite Ht in *. rewrite (ind_in c'), Q' in E' by (left; reflexivity).
  destruct (Forall_Exists_dec _ (fun p => Nat.eq_dec (left p) 0) (prods s)) as [Z|X].
  - (* everybody has sent everything: then everything has been received *)
    left. split; [exact Z|]. intros ch Hch. specialize (Hq ch Hch).
    destruct (sumsent_tsum Hch Hp) as [T _]. destruct (sumsent_tsum Hc' Hp) as [_ T']. specialize (T' Z). lia.
  - (* a producer has something left: its send is possible, since the consumer is not more than a round behind it *)
    right. apply Exists_exists in X. destruct X as (p & Hin & Hl). destruct (In_nth_error _ _ Hin) as [i Hi].
    destruct (proj1 (Forall_forall _ _) Hp p Hin) as [[_ [Bp Nep]] _].
    destruct (left p) as [|k] eqn:El; [congruence|].
    destruct (ptodo p) as [|c0 r0] eqn:Et; [congruence|].
    assert (Hc0 : c0 < m) by (apply Bp; left; reflexivity).
    assert (Hlt : q s c0 < cap s).
    (* q c0 + rcvd c0 = sumsent c0 < sumsent c' + #producers (sumsent_diff: c0 is in p's todo) = crounds + #producers (E': c' is
       empty), and crounds <= rcvd c0 *)
    { specialize (Hq c0 Hc0). pose proof (proj2 (sumsent_diff (prods s) c0 c') p Hin ltac:(rewrite Et; left; reflexivity)). lia. }
    exists (Send i (seq 0 m)). simpl. rewrite Hi, El, Et, (proj2 (Nat.ltb_lt _ _) Hlt). destruct r0; [rewrite Hn, ispermb_seq|]; discriminate.
Qed.

Lemma length_updl (l : list prod) : forall i x, length (updl i x l) = length l.
Proof. induction l as [|y l IH]; intros [|i] x; simpl; auto. Qed.

Lemma reachable {m ps co cp l s} : wf_in m ps co -> length ps <= cp -> run (init m ps co cp) l = Some s ->
  Inv m s /\ length (prods s) <= cap s.
Proof.
  intros W Hc. apply (Lib.run_invariant step run (fun _ => eq_refl) (fun _ _ _ => eq_refl) (fun s => Inv m s /\ length (prods s) <= cap s)).
  - intros s0 a s1 [I C] E. split; [exact (step_inv m _ _ _ I E)|]. destruct (step_Step E); simpl; [rewrite length_updl|]; exact C.
  - split; [exact (init_inv m ps co cp W)|]. simpl. rewrite map_length. exact Hc.
Qed.

Theorem fanin_no_deadlock m ps co cp l s :
  wf_in m ps co -> length ps <= cp -> run (init m ps co cp) l = Some s -> ~ finished m s -> exists a, step s a <> None.
Proof.
  intros W Hc R Hnf. destruct (reachable W Hc R) as [I C].
  destruct (fanin_progress m s I C) as [F|E]; [contradiction|exact E].
Qed.

(* [measure]: the sends and receives still to come, and [m] more, since the consumer always holds the order of a next round *)
Definition prem (m : nat) (p : prod) : nat := match left p with 0 => 0 | S k => k * m + length (ptodo p) end.
Fixpoint psum (m : nat) (l : list prod) : nat := match l with [] => 0 | p :: r => prem m p + psum m r end.
Definition measure (m : nat) (s : st) : nat := psum m (prods s) + (tsum (prods s) - crounds s) * m + length (ctodo s).

Lemma adv_prem m p k ch0 rest next : left p = S k -> ptodo p = ch0 :: rest -> (rest = [] -> isperm m next) ->
  prem m (adv p k rest next) + 1 = prem m p.
Proof.
  intros Hl Ht Hn. unfold prem. rewrite Hl, Ht. destruct rest; simpl; [|lia].
  rewrite (isperm_length m next (Hn eq_refl)). destruct k; lia.
Qed.

Theorem fanin_step_decreases m s a s' : Inv m s -> step s a = Some s' -> measure m s' < measure m s.
Proof.
  intros [Hm Hn [N [B Ne]] Hp Hq] H. unfold measure.
  destruct (step_Step H) as [i next p k ch0 rest Hi Hl Ht _ Hperm|next ch0 rest n Ht Q0 Hperm]; rewrite Hn in Hperm; simpl.
  - (* Send *)
    pose proof (sum_updl (psum m) (prem m) (fun _ _ => eq_refl) (adv p k rest next) Hi) as E.
    rewrite <- (adv_prem m p k ch0 rest next Hl Ht Hperm) in E.
    pose proof (sum_updl tsum total (fun _ _ => eq_refl) (adv p k rest next) Hi) as T. simpl in T. lia.
  - (* Recv *)
    assert (Hc0 : ch0 < m) by (apply B; rewrite Ht; left; reflexivity).
    (* an item waits in the channel, so the consumer has rounds to go *)
    pose proof (Hq ch0 Hc0) as Q. unfold rcvd in Q. rewrite Ht, Q0 in Q.
    pose proof (proj1 (sumsent_tsum Hc0 Hp)) as Bd. rewrite Ht.
    destruct rest; simpl; [rewrite (isperm_length m next (Hperm eq_refl)); nia|lia].
Qed.

Theorem fanin_maximal_run_completes m ps co cp l s :
  wf_in m ps co -> length ps <= cp -> run (init m ps co cp) l = Some s -> (forall a, step s a = None) -> finished m s.
Proof.
  intros W Hc R Hmax. destruct (reachable W Hc R) as [I C].
  destruct (fanin_progress m s I C) as [F|[a E]]; [exact F|destruct (E (Hmax a))].
Qed.

(* non-vacuity: the configuration of finding D21 with capacity 2 satisfies the hypotheses *)
Example fanin_wf_example : wf_in 3 [([0; 1; 2], 1); ([1; 0; 2], 1)] [2; 0; 1] /\ length [([0; 1; 2], 1); ([1; 0; 2], 1)] <= 2.
Proof.
  split; [|simpl; lia]. unfold wf_in. split; [lia|].
  split; [apply ispermb_isperm; reflexivity|].
  constructor; [simpl; apply ispermb_isperm; reflexivity|]. constructor; [simpl; apply ispermb_isperm; reflexivity|constructor].
Qed.

(* A sends to ports 0, 1, 2 in this order, B to 1, 0, 2; the consumer receives on 2, 0, 1; one task each *)
Definition d21 (cp : nat) : st := init 3 [([0; 1; 2], 1); ([1; 0; 2], 1)] [2; 0; 1] cp.

(* buffer size 1.  A has sent to port 0, B to port 1: A's next send (port 1) and B's next send (port 0) block on full
   channels, and the consumer blocks on the empty port 2, which neither producer has reached *)
Theorem fanin_deadlock :
  exists sched s, run (d21 1) sched = Some s /\ (forall a, step s a = None) /\ Exists (fun p => left p <> 0) (prods s).
Proof.
  exists [Send 0 []; Send 1 []]. eexists. split; [vm_compute; reflexivity|]. split.
  - intros [i next|next]; [|reflexivity]. destruct i as [|[|i]]; try reflexivity. destruct i; reflexivity.
  - constructor. discriminate.
Qed.

Corollary fanin_d21_cap2_ok l s : run (d21 2) l = Some s -> ~ finished 3 s -> exists a, step s a <> None.
Proof.
  intros R Hnf. destruct fanin_wf_example as [W Hl].
  exact (fanin_no_deadlock 3 _ _ 2 l s W Hl R Hnf).
Qed.
