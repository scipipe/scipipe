(* The process network of a workflow (process.go), abstracted to counts: rate 1 (a task takes one item from every
   in-port and puts one on every out-port), merge-free (one producer per in-port), bounded channels.
   A node is a Process.  [ct] is its createTasks goroutine: a round reads every in-port, then hands the task over on
   the unbuffered task channel.  [rn] is the select loop of Process.Run: it either receives a task and spawns it
   (AHand) or, once the head of startedTasks is done, takes it off (APop) and sends its outputs port by port (ASend,
   AEndSend); [fl] is startedTasks (true: Done), [cN] and [eN] count the tasks created and those whose outputs have been
   emitted, AExit is the end of a task's Execute, AFin the deferred CloseOutPorts.  An edge is a connection, a buffered
   channel of capacity [cap], of which only the numbers sent and received and the closed flag are kept. *)
From Coq Require Import List Bool PeanoNat.
Import ListNotations.

Set Implicit Arguments.

(* [slen v = Some L]: v has no in-port (Inv.wf_src) and creates L tasks on its own: a Process without in-ports and
   parameter ports creates one (createTasks leaves its loop after the first round), a source component (FileSource,
   ParamSource, the feeder of a parameter given as a string) is a node whose L tasks emit its L items.  At such a node
   ABegin ignores its [perm]. *)
Record cfg := {
  nn    : nat;                    (* nodes 0 .. nn-1, in topological order *)
  edges : list (nat * nat);       (* (src,dst); edge id = position *)
  slen  : nat -> option nat;      (* Some L : source emitting L items *)
  cap   : nat;
  epar  : nat -> bool             (* the edge ends in a parameter port (read after the file in-ports of its process) *)
}.

Definition esrc (c : cfg) (e : nat) := fst (nth e (edges c) (0,0)).
Definition edst (c : cfg) (e : nat) := snd (nth e (edges c) (0,0)).
Definition eids (c : cfg) := seq 0 (length (edges c)).
Definition ins  (c : cfg) (v : nat) := filter (fun e => Nat.eqb (edst c e) v) (eids c).
Definition outs (c : cfg) (v : nat) := filter (fun e => Nat.eqb (esrc c e) v) (eids c).

(* [CtRecv todo saw]: in a round, with the in-edges [todo] still to read; [saw]: a port of this round was found closed *)
Inductive ctst :=
| CtIdle
| CtRecv (todo : list nat) (saw : bool)
| CtHand
| CtDone.

Inductive runst := RSel | RSend (todo : list nat) | RFin.

Record nst := { ct : ctst; rn : runst; cN : nat; eN : nat; fl : list bool }.
Record est := { snt : nat; rcv : nat; clo : bool }.
Record st := { ns : nat -> nst; es : nat -> est }.

Definition upd {A} (f : nat -> A) (i : nat) (a : A) : nat -> A :=
  fun j => if Nat.eqb j i then a else f j.

Lemma upd_same A (f : nat -> A) i a : upd f i a i = a.
Proof. unfold upd. now rewrite Nat.eqb_refl. Qed.
Lemma upd_other A (f : nat -> A) i a j : j <> i -> upd f i a j = f j.
Proof. unfold upd. intros H. destruct (Nat.eqb_spec j i); congruence. Qed.

Definition init (c : cfg) : st :=
  {| ns := fun _ => {| ct := CtIdle; rn := RSel; cN := 0; eN := 0; fl := [] |};
     es := fun _ => {| snt := 0; rcv := 0; clo := false |} |}.

Inductive act :=
| ABegin (v : nat) (perm : list nat)
| ARecv (v : nat)
| AEndRound (v : nat)
| AHand (v : nat)
| AExit (v : nat) (i : nat)
| APop (v : nat) (perm : list nat)
| ASend (v : nat)
| AEndSend (v : nat)
| AFin (v : nat).

Fixpoint set_nth (l : list bool) (i : nat) (b : bool) : list bool :=
  match l, i with
  | [], _ => []
  | _ :: r, O => b :: r
  | a :: r, S j => a :: set_nth r j b
  end.

Fixpoint is_perm (l1 l2 : list nat) : bool :=    (* executable permutation test *)
  match l1 with
  | [] => match l2 with [] => true | _ => false end
  | a :: r => existsb (Nat.eqb a) l2 && is_perm r (remove Nat.eq_dec a l2)
  end.

(* a round reads the file in-ports first (in any order), then the parameter ports (in any order) *)
Fixpoint par_sorted (c : cfg) (l : list nat) : bool :=
  match l with
  | [] => true
  | a :: r => (if epar c a then forallb (epar c) r else true) && par_sorted c r
  end.

Definition set_ns (s : st) v n := {| ns := upd (ns s) v n; es := es s |}.
Definition set_es (s : st) e x := {| ns := ns s; es := upd (es s) e x |}.

Definition close_all (s : st) (l : list nat) : st :=
  fold_left (fun s e => set_es s e {| snt := snt (es s e); rcv := rcv (es s e); clo := true |}) l s.

(* AEndRound when the port found closed is a parameter port: Go goes on to read every remaining parameter port
   (receiveOnInParamPorts, [continue]); [step] allows that and also lets the round end with them unread, an
   over-approximation.  With balanced rates (Inv.wf_bal) it only arises at a process all of whose in-ports are
   parameter ports: otherwise a file port is found closed first. *)
Definition step (c : cfg) (s : st) (a : act) : option st :=
  match a with
  | ABegin v perm =>
    let n := ns s v in
    match ct n with
    | CtIdle =>
      match slen c v with
      | Some L =>
        if Nat.ltb (cN n) L
        then Some (set_ns s v {| ct := CtHand; rn := rn n; cN := cN n; eN := eN n; fl := fl n |})
        else Some (set_ns s v {| ct := CtDone; rn := rn n; cN := cN n; eN := eN n; fl := fl n |})
      | None =>
        if is_perm perm (ins c v) && par_sorted c perm
        then Some (set_ns s v {| ct := CtRecv perm false; rn := rn n; cN := cN n; eN := eN n; fl := fl n |})
        else None
      end
    | _ => None
    end
  | ARecv v =>
    let n := ns s v in
    match ct n with
    | CtRecv (y :: todo) saw =>
      let e := es s y in
      if Nat.ltb (rcv e) (snt e)
      then Some (set_es (set_ns s v {| ct := CtRecv todo saw; rn := rn n; cN := cN n; eN := eN n; fl := fl n |})
                        y {| snt := snt e; rcv := S (rcv e); clo := clo e |})
      else if clo e
           then Some (set_ns s v {| ct := CtRecv todo true; rn := rn n; cN := cN n; eN := eN n; fl := fl n |})
           else None
    | _ => None
    end
  | AEndRound v =>
    let n := ns s v in
    match ct n with
    | CtRecv todo saw =>
      (* receiveOnInPorts reads every file in-port even after it met a closed one; when one was closed createTasks
         leaves its loop without reading the parameter ports, so a round that saw a closed port may end with
         parameter edges (only) left in [todo]; a round that saw no closed port ends when every port has delivered *)
      if saw && forallb (epar c) todo then Some (set_ns s v {| ct := CtDone; rn := rn n; cN := cN n; eN := eN n; fl := fl n |})
      else if saw then None
      else match todo with
           | [] => Some (set_ns s v {| ct := CtHand; rn := rn n; cN := cN n; eN := eN n; fl := fl n |})
           | _ :: _ => None
           end
    | _ => None
    end
  | AHand v =>
    let n := ns s v in
    match ct n, rn n with
    | CtHand, RSel =>
      Some (set_ns s v {| ct := CtIdle; rn := RSel; cN := S (cN n); eN := eN n; fl := fl n ++ [false] |})
    | _, _ => None
    end
  | AExit v i =>
    let n := ns s v in
    match nth_error (fl n) i with
    | Some false => Some (set_ns s v {| ct := ct n; rn := rn n; cN := cN n; eN := eN n; fl := set_nth (fl n) i true |})
    | _ => None
    end
  | APop v perm =>
    let n := ns s v in
    match rn n, fl n with
    | RSel, true :: rest =>
      if is_perm perm (outs c v)
      then Some (set_ns s v {| ct := ct n; rn := RSend perm; cN := cN n; eN := eN n; fl := rest |})
      else None
    | _, _ => None
    end
  | ASend v =>
    let n := ns s v in
    match rn n with
    | RSend (x :: todo) =>
      let e := es s x in
      if Nat.ltb (snt e - rcv e) (cap c)
      then Some (set_es (set_ns s v {| ct := ct n; rn := RSend todo; cN := cN n; eN := eN n; fl := fl n |})
                        x {| snt := S (snt e); rcv := rcv e; clo := clo e |})
      else None
    | _ => None
    end
  | AEndSend v =>
    let n := ns s v in
    match rn n with
    | RSend [] => Some (set_ns s v {| ct := ct n; rn := RSel; cN := cN n; eN := S (eN n); fl := fl n |})
    | _ => None
    end
  | AFin v =>
    let n := ns s v in
    match rn n, ct n, fl n with
    | RSel, CtDone, [] =>
      Some (close_all (set_ns s v {| ct := CtDone; rn := RFin; cN := cN n; eN := eN n; fl := [] |}) (outs c v))
    | _, _, _ => None
    end
  end.

Fixpoint run (c : cfg) (s : st) (sched : list act) : option st :=
  match sched with
  | [] => Some s
  | a :: r => match step c s a with Some s' => run c s' r | None => None end
  end.

Definition node_of (a : act) : nat :=
  match a with
  | ABegin v _ | ARecv v | AEndRound v | AHand v | AExit v _ | APop v _ | ASend v | AEndSend v | AFin v => v
  end.

(* The step function in rule form.  A step at node v writes the state of v and the edges, nothing else:
   [lstep c s a n' q'] says that in state s the action a can fire, leaving its node in n' and the edges as q'.
   One rule per way an action can succeed, the guards as named premises; proofs about [step] go through [step_lstep]
   and then by cases on the rule, the successor state staying a variable.
   The setters serve only [lstep] and the lemmas about it; they unfold to the records that [step] spells out, so the
   successor of every rule is convertible with a right-hand side of [step]: that is what [rule] below relies on. *)
Definition with_ct (n : nst) (x : ctst) : nst := {| ct := x; rn := rn n; cN := cN n; eN := eN n; fl := fl n |}.
Definition with_rn (n : nst) (x : runst) : nst := {| ct := ct n; rn := x; cN := cN n; eN := eN n; fl := fl n |}.
Definition took (x : est) : est := {| snt := snt x; rcv := S (rcv x); clo := clo x |}.
Definition put (x : est) : est := {| snt := S (snt x); rcv := rcv x; clo := clo x |}.
Definition closed (x : est) : est := {| snt := snt x; rcv := rcv x; clo := true |}.

Inductive lstep (c : cfg) (s : st) : act -> nst -> (nat -> est) -> Prop :=
| LBeginMore v perm L (Ct : ct (ns s v) = CtIdle) (Sl : slen c v = Some L) (Lt : cN (ns s v) < L) :
    lstep c s (ABegin v perm) (with_ct (ns s v) CtHand) (es s)
| LBeginEnd v perm L (Ct : ct (ns s v) = CtIdle) (Sl : slen c v = Some L) (Ge : L <= cN (ns s v)) :
    lstep c s (ABegin v perm) (with_ct (ns s v) CtDone) (es s)
| LBeginRound v perm (Ct : ct (ns s v) = CtIdle) (Sl : slen c v = None)
    (Pm : is_perm perm (ins c v) = true) (Ps : par_sorted c perm = true) :
    lstep c s (ABegin v perm) (with_ct (ns s v) (CtRecv perm false)) (es s)
| LRecv v y todo saw (Ct : ct (ns s v) = CtRecv (y :: todo) saw) (Q : rcv (es s y) < snt (es s y)) :
    lstep c s (ARecv v) (with_ct (ns s v) (CtRecv todo saw)) (upd (es s) y (took (es s y)))
| LRecvClosed v y todo saw (Ct : ct (ns s v) = CtRecv (y :: todo) saw)
    (Q : snt (es s y) <= rcv (es s y)) (Cl : clo (es s y) = true) :
    lstep c s (ARecv v) (with_ct (ns s v) (CtRecv todo true)) (es s)
| LEndClosed v todo (Ct : ct (ns s v) = CtRecv todo true) (Pa : forallb (epar c) todo = true) :
    lstep c s (AEndRound v) (with_ct (ns s v) CtDone) (es s)
| LEndRound v (Ct : ct (ns s v) = CtRecv [] false) :
    lstep c s (AEndRound v) (with_ct (ns s v) CtHand) (es s)
| LHand v (Ct : ct (ns s v) = CtHand) (Rn : rn (ns s v) = RSel) :
    lstep c s (AHand v)
          {| ct := CtIdle; rn := RSel; cN := S (cN (ns s v)); eN := eN (ns s v); fl := fl (ns s v) ++ [false] |} (es s)
| LExit v i (Fl : nth_error (fl (ns s v)) i = Some false) :
    lstep c s (AExit v i)
          {| ct := ct (ns s v); rn := rn (ns s v); cN := cN (ns s v); eN := eN (ns s v);
             fl := set_nth (fl (ns s v)) i true |} (es s)
| LPop v perm rest (Rn : rn (ns s v) = RSel) (Fl : fl (ns s v) = true :: rest) (Pm : is_perm perm (outs c v) = true) :
    lstep c s (APop v perm)
          {| ct := ct (ns s v); rn := RSend perm; cN := cN (ns s v); eN := eN (ns s v); fl := rest |} (es s)
| LSend v x todo (Rn : rn (ns s v) = RSend (x :: todo)) (Q : snt (es s x) - rcv (es s x) < cap c) :
    lstep c s (ASend v) (with_rn (ns s v) (RSend todo)) (upd (es s) x (put (es s x)))
| LEndSend v (Rn : rn (ns s v) = RSend []) :
    lstep c s (AEndSend v)
          {| ct := ct (ns s v); rn := RSel; cN := cN (ns s v); eN := S (eN (ns s v)); fl := fl (ns s v) |} (es s)
| LFin v (Rn : rn (ns s v) = RSel) (Ct : ct (ns s v) = CtDone) (Fl : fl (ns s v) = []) :
    lstep c s (AFin v) (with_rn (ns s v) RFin)
          (fun e => if existsb (Nat.eqb e) (outs c v) then closed (es s e) else es s e).

Lemma close_all_ns s l : ns (close_all s l) = ns s.
Proof. revert s; induction l as [|a r IH]; intros s; simpl; auto. rewrite IH. reflexivity. Qed.

Lemma close_all_es s l e : es (close_all s l) e = if existsb (Nat.eqb e) l then closed (es s e) else es s e.
Proof.
  revert s; induction l as [|a r IH]; intros s; simpl; auto.
  rewrite IH. unfold set_es; simpl. unfold upd. destruct (Nat.eqb_spec e a); subst.
  - destruct (existsb (Nat.eqb a) r); reflexivity.
  - reflexivity.
Qed.

(* closes a branch of [step] whose guards are in the context: the result is the right-hand side of one rule *)
Local Ltac rule H := injection H as <-; eexists _, _; (split; [econstructor; eassumption|split; reflexivity]).

(* the edges pointwise only: after AFin [es s'] is a fold (close_all), which agrees with the function of LFin at every
   edge (close_all_es) without being convertible with it *)
Theorem step_lstep {c s a s'} : step c s a = Some s' ->
  exists n' q', lstep c s a n' q' /\ ns s' = upd (ns s) (node_of a) n' /\ forall e, es s' e = q' e.
Proof.
  intros H. destruct a as [v perm|v|v|v|v i|v perm|v|v|v]; simpl in *.
  - destruct (ct (ns s v)) eqn:Ct; try discriminate. destruct (slen c v) as [L|] eqn:Sl.
    + destruct (Nat.ltb_spec (cN (ns s v)) L); rule H.
    + destruct (is_perm perm (ins c v)) eqn:Pm; [|discriminate]. destruct (par_sorted c perm) eqn:Ps; [|discriminate].
      rule H.
  - destruct (ct (ns s v)) as [|[|y todo] saw| |] eqn:Ct; try discriminate.
    destruct (Nat.ltb_spec (rcv (es s y)) (snt (es s y))); [|destruct (clo (es s y)) eqn:Cl; [|discriminate]]; rule H.
  - destruct (ct (ns s v)) as [|todo [|]| |] eqn:Ct; try discriminate.
    + destruct (forallb (epar c) todo) eqn:Pa; [|discriminate]. rule H.
    + destruct todo; [|discriminate]. rule H.
  - destruct (ct (ns s v)) eqn:Ct; try discriminate. destruct (rn (ns s v)) eqn:Rn; try discriminate. rule H.
  - destruct (nth_error (fl (ns s v)) i) as [[|]|] eqn:Fl; try discriminate. rule H.
  - destruct (rn (ns s v)) eqn:Rn; try discriminate. destruct (fl (ns s v)) as [|[|] rest] eqn:Fl; try discriminate.
    destruct (is_perm perm (outs c v)) eqn:Pm; [|discriminate]. rule H.
  - destruct (rn (ns s v)) as [|[|x todo]|] eqn:Rn; try discriminate.
    destruct (Nat.ltb_spec (snt (es s x) - rcv (es s x)) (cap c)); [|discriminate]. rule H.
  - destruct (rn (ns s v)) as [|[|]|] eqn:Rn; try discriminate. rule H.
  - destruct (rn (ns s v)) eqn:Rn; try discriminate. destruct (ct (ns s v)) eqn:Ct; try discriminate.
    destruct (fl (ns s v)) eqn:Fl; try discriminate. injection H as <-.
    eexists _, _. split; [econstructor; assumption|]. split; [|intros e; rewrite close_all_es; reflexivity].
    rewrite close_all_ns. unfold with_rn. rewrite Ct, Fl. reflexivity.
Qed.

Lemma lstep_clo_mono c s a n' q' e : lstep c s a n' q' -> clo (es s e) = true -> clo (q' e) = true.
Proof.
  intros L H. destruct L; auto.
  - (* LRecv *) unfold upd. destruct (Nat.eqb_spec e y) as [->|]; auto.
  - (* LSend *) unfold upd. destruct (Nat.eqb_spec e x) as [->|]; auto.
  - (* LFin *) destruct (existsb _ _); auto.
Qed.
