(* C03 for every history: any finite sequence of runs, each killed at an arbitrary instant at which no task is strictly
   between two of its renames (and started with or without left-over temp dirs), followed by a run that completes,
   ends with the files of the uninterrupted run. *)
From Coq Require Import List.
From SP Require Import Result TaskFS TInv Glue Cor TaskTop.

Section History.
Variable c : cfg.
Hypothesis WF : wfc c.
Variable f0 fR : fs.
Hypothesis HR : pre c f0 (nt c) = Some fR.

(* the stores a history of interrupted runs can leave behind *)
Inductive hist : fs -> Prop :=
| H_start : hist f0
| H_crash f left s : hist f -> reachable c f left s -> finalize_atomic c s -> hist (fin s).

(* whatever the history, the next run that is allowed to finish computes the uninterrupted result: that is so at the
   start, and a crash keeps it so (TaskTop.crash_restart_converges, for the run that crashed) ... *)
Theorem any_history_converges f : hist f ->
  exists fR', result (tl c (nt c)) f = Some fR' /\ forall x, fR' x = fR x.
Proof.
  induction 1 as [|f left s _ [fR' [HR' Eq]] R FA].
  - exists fR. split; [exact HR|reflexivity].
  - destruct (crash_restart_converges c f left WF fR' HR' s R FA) as [fR'' [HR'' Eq']].
    exists fR''. split; [exact HR''|]. intros x. rewrite Eq'. apply Eq.
Qed.

(* ... and so does every concurrent execution of it: when all its tasks are done, every declared output holds the
   content of the uninterrupted run *)
Theorem any_history_run_completes f left s : hist f -> reachable c f left s ->
  (forall t, t < nt c -> is_done (pcs s t) = true) ->
  forall t x, t < nt c -> In x (tout (tk c t)) -> fin s x = fR x.
Proof.
  intros H R HD t x Ht Hx. destruct (any_history_converges f H) as [fR' [HR' Eq]].
  rewrite (complete_is_result c f left WF fR' HR' s R HD t x Ht Hx). apply Eq.
Qed.

End History.
