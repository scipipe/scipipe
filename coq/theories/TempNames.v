(* Task.TempDir naming (C14): the name is one valid path segment; equal names give equal SHA-1 digests of the hashed
   pre-images.  (That the name does not depend on map order is in TempStable.v.) *)
From Coq Require Import List Ascii String NArith Arith Lia Bool.
Import ListNotations.
Require Import Sha1.
Local Open Scope N_scope.
Notation length := List.length.

Definition str := list ascii.
Definition s2l (s : string) : str := list_ascii_of_string s.

(* sanitizePathFragment on ASCII: ToLower, then runs of [^a-z0-9_.-] -> "_" *)
Definition lower (c : ascii) : ascii :=
  let n := N_of_ascii c in if (65 <=? n) && (n <=? 90) then ascii_of_N (n + 32) else c.
Definition allowed (c : ascii) : bool :=
  let n := N_of_ascii c in
  ((97 <=? n) && (n <=? 122)) || ((48 <=? n) && (n <=? 57)) || (n =? 95) || (n =? 45) || (n =? 46).
Fixpoint squash (s : str) (inrun : bool) : str :=
  match s with
  | [] => []
  | c :: r => if allowed c then c :: squash r false
              else if inrun then squash r true else "_"%char :: squash r true
  end.
Definition sanitize (s : str) : str := squash (map lower s) false.

Lemma squash_allowed s b : Forall (fun c => allowed c = true) (squash s b).
Proof.
  revert b; induction s as [|c r IH]; intros b; simpl; [constructor|].
  destruct (allowed c) eqn:A; [constructor; auto|].
  destruct b; [apply IH|constructor; [reflexivity|apply IH]].
Qed.

Definition hexd (n : N) : ascii := if n <? 10 then ascii_of_N (48 + n) else ascii_of_N (87 + n).
Definition hexb (b : N) : str := [hexd (b / 16); hexd (b mod 16)].
Definition hexs (l : list N) : str := flat_map hexb l.

(* '0'..'9' is 48..57, 'a'..'f' is 97..102 *)
Lemma hexd_code n : n < 16 -> N_of_ascii (hexd n) = if n <? 10 then 48 + n else 87 + n.
Proof. intros H. unfold hexd. destruct (n <? 10); apply N_ascii_embedding; lia. Qed.

Lemma hexd_allowed n : n < 16 -> allowed (hexd n) = true.
Proof.
  intros H. unfold allowed. rewrite (hexd_code n H). destruct (N.ltb_spec n 10).
  - (* a digit *) replace ((48 <=? 48 + n) && (48 + n <=? 57)) with true; [now rewrite orb_true_r|].
    symmetry. apply andb_true_intro. split; apply N.leb_le; lia.
  - (* a letter *) replace ((97 <=? 87 + n) && (87 + n <=? 122)) with true; [reflexivity|].
    symmetry. apply andb_true_intro. split; apply N.leb_le; lia.
Qed.

Lemma hexd_inj a b : a < 16 -> b < 16 -> hexd a = hexd b -> a = b.
Proof.
  intros Ha Hb E. apply (f_equal N_of_ascii) in E. rewrite (hexd_code a Ha), (hexd_code b Hb) in E.
  destruct (N.ltb_spec a 10), (N.ltb_spec b 10); lia.
Qed.

Definition bytes (l : list N) := Forall (fun b => b < 256) l.

Lemma hexs_length l : length (hexs l) = (2 * length l)%nat.
Proof. induction l; simpl; auto. lia. Qed.

Lemma byte_digits b : b < 256 -> b / 16 < 16 /\ b mod 16 < 16.
Proof. intros H. split; [apply N.div_lt_upper_bound; [discriminate|exact H]|apply N.mod_lt; discriminate]. Qed.

Lemma hexb_inj a b : a < 256 -> b < 256 -> hexb a = hexb b -> a = b.
Proof.
  intros Ha Hb E. destruct (byte_digits a Ha) as [a1 a2], (byte_digits b Hb) as [b1 b2].
  injection E as E1 E2. apply hexd_inj in E1, E2; try assumption.
  rewrite (N.div_mod a 16), (N.div_mod b 16) by discriminate. now rewrite E1, E2.
Qed.

Lemma hexs_inj l1 : forall l2, bytes l1 -> bytes l2 -> hexs l1 = hexs l2 -> l1 = l2.
Proof.
  induction l1 as [|a l1 IH]; intros [|b l2] B1 B2 E; try discriminate; auto.
  inversion B1. inversion B2. injection E as E1 E2 E3.
  f_equal; [|apply IH; auto]. apply hexb_inj; [assumption..|]. unfold hexb. now rewrite E1, E2.
Qed.

Lemma hexs_allowed l : bytes l -> Forall (fun c => allowed c = true) (hexs l).
Proof.
  induction 1 as [|b l Hb Hl IH]; [constructor|]. destruct (byte_digits b Hb).
  repeat constructor; try apply hexd_allowed; assumption.
Qed.

Lemma be_bytes_len n x : length (be_bytes n x) = n.
Proof. unfold be_bytes. now rewrite rev_length, map_length, seq_length. Qed.
Lemma be_bytes_bytes n x : bytes (be_bytes n x).
Proof.
  unfold be_bytes, bytes. apply Forall_rev. apply Forall_map, Forall_forall. intros i _.
  change 255 with (N.ones 8). rewrite N.land_ones. apply N.mod_lt. discriminate.
Qed.

Lemma sha1_shape m : length (sha1 m) = 20%nat /\ bytes (sha1 m).
Proof.
  unfold sha1. destruct (fold_left _ _ _) as [[[[h0 h1] h2] h3] h4].
  split.
  - rewrite app_length, be_bytes_len. reflexivity.
  - do 4 (apply Forall_app; split; [apply be_bytes_bytes|]). apply be_bytes_bytes.
Qed.

Lemma hex_sha1_length m : length (hexs (sha1 m)) = 40%nat.
Proof. rewrite hexs_length. destruct (sha1_shape m) as [-> _]. reflexivity. Qed.

Definition to_bytes (s : str) : list N := map N_of_ascii s.
Definition pfx : str := s2l "_scipipe_tmp".
Definition dot : ascii := "."%char.

(* `pre` is the joined hash pre-image (name, input path pieces, params, tags).  214 = 255 - 40 - 1, as in
   Task.TempDir (task.go: `len(pathPrefix) > (255 - 40 - 1)`): a 255-byte segment less the 40 hex digits and the dot. *)
Definition tempdir (name pre : str) : str :=
  let p := pfx ++ dot :: sanitize name in
  if Nat.ltb 214 (length p)
  then pfx ++ dot :: hexs (sha1 (to_bytes (pre ++ p)))
  else p ++ dot :: hexs (sha1 (to_bytes pre)).

(* what is hashed: [pre], plus the long prefix when [pfx] replaces it in the name (task.go:556-560) *)
Definition hashed (name pre : str) : str :=
  let p := pfx ++ dot :: sanitize name in if Nat.ltb 214 (length p) then pre ++ p else pre.

Lemma pfx_allowed : Forall (fun c => allowed c = true) pfx.
Proof. repeat constructor. Qed.

Lemma tempdir_shape name pre :
  exists a, tempdir name pre = a ++ dot :: hexs (sha1 (to_bytes (hashed name pre)))
            /\ (length a <= 214)%nat /\ Forall (fun c => allowed c = true) a.
Proof.
  unfold tempdir, hashed. set (p := pfx ++ dot :: sanitize name).
  destruct (Nat.ltb 214 (length p)) eqn:L.
  - exists pfx. split; [reflexivity|]. split; [apply Nat.leb_le; reflexivity|apply pfx_allowed].
  - exists p. split; [reflexivity|]. split; [apply Nat.ltb_ge, L|].
    apply Forall_app. split; [apply pfx_allowed|]. constructor; [reflexivity|apply squash_allowed].
Qed.

Theorem C14_valid_segment name pre :
  (length (tempdir name pre) <= 255)%nat /\ Forall (fun c => allowed c = true) (tempdir name pre).
Proof.
  destruct (tempdir_shape name pre) as [a [-> [La Ha]]]. split.
  - rewrite app_length. cbn [length]. rewrite hex_sha1_length. lia.
  - apply Forall_app. split; [exact Ha|]. constructor; [reflexivity|]. apply hexs_allowed, sha1_shape.
Qed.

Lemma app_tail_inj {A} (l1 l2 s1 s2 : list A) :
  l1 ++ s1 = l2 ++ s2 -> length s1 = length s2 -> l1 = l2 /\ s1 = s2.
Proof.
  revert l2; induction l1 as [|a l1 IH]; intros [|b l2] E L; simpl in *.
  - auto.
  - subst. simpl in L. rewrite app_length in L. lia.
  - subst. simpl in L. rewrite app_length in L. lia.
  - injection E as -> E. destruct (IH l2 E L) as [-> ->]. auto.
Qed.

Lemma hash_part_inj (a b : str) m1 m2 :
  a ++ dot :: hexs (sha1 m1) = b ++ dot :: hexs (sha1 m2) -> sha1 m1 = sha1 m2.
Proof.
  intros E. apply app_tail_inj in E.
  - destruct E as [_ E]. injection E as E. apply hexs_inj; [apply sha1_shape|apply sha1_shape|exact E].
  - cbn [length]. rewrite !hex_sha1_length. reflexivity.
Qed.

(* a clash of names between different hashed pre-images exhibits a SHA-1 collision; nothing about SHA-1 is assumed *)
Theorem C14_reduction n1 p1 n2 p2 :
  tempdir n1 p1 = tempdir n2 p2 ->
  sha1 (to_bytes (hashed n1 p1)) = sha1 (to_bytes (hashed n2 p2)).
Proof.
  destruct (tempdir_shape n1 p1) as [a1 [-> _]]. destruct (tempdir_shape n2 p2) as [a2 [-> _]].
  apply hash_part_inj.
Qed.
Print Assumptions C14_valid_segment.
Print Assumptions C14_reduction.
