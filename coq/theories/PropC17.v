(* C17 -- Streaming outputs deliver the producer's bytes through a FIFO and leave no trace.
   Model: Stream -- a producer / consumer pair connected by a named pipe (rendez-vous open, bounded buffer), both tasks
   needing a slot, the producer's audit record set on the shared IP after it exits, the pipe removed by the producer's
   process after the task is done; the consumer either executes, or -- on a re-run, its output being on disk -- is skipped
   and drains the pipe.  StreamN -- any number of such pairs sharing the workflow's slot counter.
   Quantifiers: every number of pairs, every payload, pipe capacity and mode per pair, slot count, schedule. *)
From Coq Require Import List Bool.
Import ListNotations.
From SP Require Import Skel Gen Expected ExpectedCones Stream StreamLive StreamN.
From SP Require Drain.

(* T1: the FIFO is created and forwarded before the task is spawned, removed after the task's Done; a skipped task
   drains the FIFOs of its streaming inputs *)
Theorem C17_code_conforms :
  skel_eqb skel_Process_Run exp_Process_Run
  && skel_eqb skel_Task_Execute exp_Task_Execute
  && skel_eqb skel_Task_drainStreamingInputs exp_Task_drainStreamingInputs
  && skel_eqb skel_FileIP_CreateFifo exp_FileIP_CreateFifo
  && skel_eqb skel_Task_anyOutputsExist exp_Task_anyOutputsExist
  && skel_eqb skel_Task_ensureAllOutputsExist exp_Task_ensureAllOutputsExist
  && skel_eqb skel_FinalizePaths exp_FinalizePaths = true.
Proof. vm_compute. reflexivity. Qed.

(* whatever the schedule, the payload size and the pipe capacity: a consumer that has executed and finished has finalized
   exactly and completely the bytes the producer wrote *)
Theorem C17_bytes : forall (c : cfg) (l : list act) (s : st),
  skip c = false -> run c (init c) l = Some s -> cp s = CDone -> outfile s = Some (payload c).
Proof. exact Stream.C17_bytes. Qed.

(* every execution completes: with a slot for the producer and one for the executing consumer (the property's guard) and
   a pipe of capacity >= 1, no reachable state is stuck before both tasks are done and the pipe is removed ... *)
Theorem C17_progress : forall (c : cfg) (l : list act) (s : st),
  (if skip c then 1 else 2) <= slots c -> 1 <= pipecap c ->
  run c (init c) l = Some s -> fifo s = true \/ pp s <> PDone \/ cp s <> CDone ->
  exists a, step c s a <> None.
Proof. exact StreamLive.stream_progress. Qed.

(* ... and every execution is finite: each action strictly decreases a natural-number measure *)
Theorem C17_terminates : forall (c : cfg) (s : st) (a : act) (s' : st),
  step c s a = Some s' -> measure c s' < measure c s.
Proof. exact StreamLive.stream_step_decreases. Qed.

(* re-running the workflow after it completed: the consumer's output is on disk, its task is skipped and drains the pipe;
   the run terminates (C17_progress and C17_terminates cover this mode: skip c = true) and the consumer's output keeps its
   content in every reachable state ... *)
Theorem C17_rerun_untouched : forall (c : cfg) (l : list act) (s : st),
  skip c = true -> run c (init c) l = Some s -> outfile s = Some (old c).
Proof. exact Stream.rerun_untouched. Qed.

(* ... and once the skipped consumer is done, what it drained is exactly what the re-executed producer wrote, and the pipe is empty *)
Theorem C17_rerun_drained : forall (c : cfg) (l : list act) (s : st),
  skip c = true -> run c (init c) l = Some s -> cp s = CDone -> got s = payload c /\ buf s = [].
Proof. exact Stream.rerun_drained. Qed.

(* C17_bytes for each of any number of pairs sharing the task slots *)
Theorem C17_pairs_bytes : forall (g : gcfg) (l : list (nat * act)) (s : gst) (i : nat) (c : cfg) (p : st),
  grun g (ginit g) l = Some s -> nth_error (cfgs g) i = Some c -> nth_error (pairs s) i = Some p ->
  skip c = false -> cp p = CDone -> outfile p = Some (payload c).
Proof. exact StreamN.pairs_bytes. Qed.

(* C17_rerun_untouched for each of any number of pairs sharing the task slots *)
Theorem C17_pairs_rerun_untouched : forall (g : gcfg) (l : list (nat * act)) (s : gst) (i : nat) (c : cfg) (p : st),
  grun g (ginit g) l = Some s -> nth_error (cfgs g) i = Some c -> nth_error (pairs s) i = Some p ->
  skip c = true -> outfile p = Some (old c).
Proof. exact StreamN.pairs_rerun_untouched. Qed.

(* "whenever enough task slots exist for each producer and its consumer to run at the same time": total demand = one slot
   per producer plus one per executing consumer.  Then no reachable state is stuck while any pair is unfinished: the
   unfinished pair itself can move *)
Theorem C17_pairs_progress : forall (g : gcfg) (l : list (nat * act)) (s : gst) (i : nat) (p : st),
  total_demand g <= gslots g -> Forall (fun c => 1 <= pipecap c) (cfgs g) ->
  grun g (ginit g) l = Some s -> nth_error (pairs s) i = Some p -> unfinished p ->
  exists a, gstep g s (i, a) <> None.
Proof. exact StreamN.pairs_progress. Qed.

(* a run that cannot be extended has finished every pair and removed every pipe *)
Theorem C17_pairs_maximal : forall (g : gcfg) (l : list (nat * act)) (s : gst),
  total_demand g <= gslots g -> Forall (fun c => 1 <= pipecap c) (cfgs g) ->
  grun g (ginit g) l = Some s -> (forall ia, gstep g s ia = None) ->
  forall i p, nth_error (pairs s) i = Some p -> pp p = PDone /\ cp p = CDone /\ fifo p = false.
Proof. exact StreamN.pairs_maximal_run_completes. Qed.

(* every execution of the pairs is finite: each action strictly decreases the sum of the pairs' measures *)
Theorem C17_pairs_terminate : forall (g : gcfg) (s : gst) (ia : nat * act) (s' : gst),
  gstep g s ia = Some s' -> gmeasure (cfgs g) (pairs s') < gmeasure (cfgs g) (pairs s).
Proof. exact StreamN.pairs_terminate. Qed.

(* non-vacuity: an executing pair and a skipped-and-draining pair on three slots, interleaved to completion *)
Theorem C17_pairs_example :
  total_demand g2 <= gslots g2 /\
  match grun g2 (ginit g2) sched2 with
  | Some s => map outfile (pairs s) = [Some [1;2;3]; Some [9]] /\ map fifo (pairs s) = [false; false] /\ gtok s = 0
              /\ map cp (pairs s) = [CDone; CDone]
  | None => False
  end.
Proof. exact StreamN.pairs_example. Qed.

(* the guard is necessary for several pairs too: two executing pairs on two slots deadlock *)
Theorem C17_pairs_too_few_slots_refuted :
  match grun g3 (ginit g3) [(0, AForward); (1, AForward); (0, PAcquire); (1, PAcquire)] with
  | Some s => gstuck g3 s = true /\ map cp (pairs s) = [CWaitSlot; CWaitSlot]
  | None => False
  end.
Proof. exact StreamN.pairs_too_few_slots_refuted. Qed.

(* a skipped consumer with several streaming inputs (finding D22): the FIFOs are drained concurrently.  Whatever the order in
   which the producer writes them and however many there are, the state with the first n writes done and the drainer waiting
   on the FIFOs not yet written can take its next rendezvous (that the run reaches these states is not proved) ... *)
Theorem C17_drain_concurrent_progress : forall (writes fifos : list nat),
  NoDup writes -> (forall f, In f writes -> In f fifos) ->
  forall n s, n <= List.length writes ->
  s = {| Drain.pw := skipn n writes; Drain.waiting := filter (fun x => negb (existsb (Nat.eqb x) (firstn n writes))) fifos; Drain.later := [] |} ->
  Drain.pw s <> [] -> Drain.step s <> None.
Proof. exact Drain.concurrent_progress. Qed.

(* ... whereas draining them one after the other, in an order that differs from the producer's, waits for ever (the code
   before the repair: the re-run of a completed workflow hung when map iteration gave the other order) *)
Theorem C17_drain_sequential_refuted_before_repair :
  Drain.step (Drain.sequential [2; 1] [1; 2]) = None /\ Drain.pw (Drain.sequential [2; 1] [1; 2]) <> [].
Proof. exact Drain.sequential_stuck. Qed.

(* non-vacuity and the "no trace" part on a complete run: payload longer than the pipe, two slots; at the end both are
   done, the pipe is removed, all slots are free *)
Theorem C17_run_ok :
  after c2 (init c2) [AForward; PAcquire; CAcquire; AOpenBoth; PWrite; PWrite; CRead; PWrite; PExit; CRead; CRead; CEof;
                      PSetAudit; CAudit; CFinalize; CRelease; CDoneA; PRelease; PDoneA; ARemoveFifo]
        (fun s => cp_done s && pp_done s && negb (fifo s) && Nat.eqb (tokens s) 0) = true.
Proof. exact Stream.C17_run_ok. Qed.

(* the property's own guard is necessary: with a single slot the pair deadlocks *)
Theorem C17_one_slot_refuted :
  after c1 (init c1) [AForward; PAcquire] (fun s => stuck c1 s && negb (cp_done s)) = true.
Proof. exact Stream.C17_one_slot_refuted. Qed.

(* finding D12: whether the consumer's record names the producer depends on who finishes first *)
Theorem C17_audit_race_refuted :
  (match run c3 (init c3) [AForward; PAcquire; CAcquire; AOpenBoth; PWrite; PExit; CRead; CEof; PSetAudit; CAudit] with Some s => linked s | None => None end) = Some true /\
  (match run c3 (init c3) [AForward; PAcquire; CAcquire; AOpenBoth; PWrite; PExit; CRead; CEof; CAudit; PSetAudit] with Some s => linked s | None => None end) = Some false.
Proof. exact Stream.C17_audit_race_refuted. Qed.

(* why the drain in the skip branch is demanded: without it, on a re-run the consumer is skipped, never opens the pipe,
   and the re-executed producer blocks in open() for ever (the defect D9, repaired in the source) *)
Theorem C17_rerun_without_drain_refuted :
  after c3 s_rerun [PAcquire] (fun s => stuck c3 s && negb (pp_done s)) = true.
Proof. exact Stream.C17_rerun_refuted. Qed.

(* T1, call cones (DESIGN 11.26, ExpectedCones.v): every function of scipipe reachable from the functions above is one the
   models were compared with. *)
Theorem C17_cone_conforms :
  strs_eqb cone_Process_Run exp_cone_Process_Run
  && strs_eqb cone_Task_Execute exp_cone_Task_Execute
  && strs_eqb cone_Task_drainStreamingInputs exp_cone_Task_drainStreamingInputs
  && strs_eqb cone_FileIP_CreateFifo exp_cone_FileIP_CreateFifo
  && strs_eqb cone_Task_anyOutputsExist exp_cone_Task_anyOutputsExist
  && strs_eqb cone_Task_ensureAllOutputsExist exp_cone_Task_ensureAllOutputsExist
  && strs_eqb cone_FinalizePaths exp_cone_FinalizePaths = true.
Proof. vm_compute. reflexivity. Qed.

Print Assumptions C17_code_conforms.
Print Assumptions C17_bytes.
Print Assumptions C17_progress.
Print Assumptions C17_terminates.
Print Assumptions C17_rerun_untouched.
Print Assumptions C17_rerun_drained.
Print Assumptions C17_drain_concurrent_progress.
Print Assumptions C17_drain_sequential_refuted_before_repair.
Print Assumptions C17_pairs_bytes.
Print Assumptions C17_pairs_rerun_untouched.
Print Assumptions C17_pairs_progress.
Print Assumptions C17_pairs_maximal.
Print Assumptions C17_pairs_terminate.
Print Assumptions C17_pairs_example.
Print Assumptions C17_pairs_too_few_slots_refuted.
Print Assumptions C17_run_ok.
Print Assumptions C17_one_slot_refuted.
Print Assumptions C17_audit_race_refuted.
Print Assumptions C17_rerun_without_drain_refuted.
Print Assumptions C17_cone_conforms.
