(* Executable model of Task.TempDir on a whole task identity: the maps sorted by key, the hash pre-image, the name. *)
From Coq Require Import List Ascii String NArith.
Import ListNotations.
Require Import PathLex TempNames.

(* Go's `<` on strings: bytewise, a proper prefix before its extensions *)
Fixpoint str_ltb (a b : str) : bool :=
  match a, b with
  | [], [] => false
  | [], _ :: _ => true
  | _ :: _, [] => false
  | x :: a', y :: b' =>
    if N.ltb (N_of_ascii x) (N_of_ascii y) then true
    else if N.ltb (N_of_ascii y) (N_of_ascii x) then false else str_ltb a' b'
  end.

(* sort_kv, by insertion, puts a map's entries in the order of sortedFileIPMapKeys / sortedFileIPSliceMapKeys /
   sortedStringMapKeys (process.go: sort.Strings on the keys, which in a map are distinct) *)
Fixpoint ins_kv {V} (kv : str * V) (l : list (str * V)) : list (str * V) :=
  match l with
  | [] => [kv]
  | h :: r => if str_ltb (fst kv) (fst h) then kv :: h :: r else h :: ins_kv kv r
  end.
Definition sort_kv {V} (l : list (str * V)) : list (str * V) := fold_right ins_kv [] l.

Record ident := {
  iname : str;
  iins : list (str * str);
  isubs : list (str * list str);
  iparams : list (str * str);
  itags : list (str * str)
}.

Definition us : ascii := "_"%char.

Definition preimage (i : ident) : str :=
  iname i
  ++ List.concat (flat_map (fun kv => split_all (snd kv)) (sort_kv (iins i)))
  ++ List.concat (flat_map (fun kv => flat_map split_all (snd kv)) (sort_kv (isubs i)))
  ++ List.concat (map (fun kv => fst kv ++ us :: snd kv) (sort_kv (iparams i)))
  ++ List.concat (map (fun kv => fst kv ++ us :: snd kv) (sort_kv (itags i))).

Definition task_tempdir (i : ident) : str := tempdir (iname i) (preimage i).

(* the pre-image is not injective: "a/b" and "ab" as the input of the same process give the same bytes (finding D7) *)
Definition idA := {| iname := s2l "p"; iins := [(s2l "in", s2l "a/b")]; isubs := []; iparams := []; itags := [] |}.
Definition idB := {| iname := s2l "p"; iins := [(s2l "in", s2l "ab")]; isubs := []; iparams := []; itags := [] |}.
Example C14_preimage_refuted : iins idA <> iins idB /\ task_tempdir idA = task_tempdir idB.
Proof.
  split; [discriminate|].
  (* the two pre-images are the same byte string, "pab": nothing needs to be hashed *)
  assert (E : preimage idA = preimage idB) by (vm_compute; reflexivity).
  unfold task_tempdir. rewrite E. reflexivity.
Qed.
Eval vm_compute in l2s (task_tempdir idA).
