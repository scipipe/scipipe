(* C08 -- Outputs leave a process in the order its inputs arrived. *)
From Coq Require Import List Bool.
Import ListNotations.
From SP Require Import Skel Gen Expected ExpectedCones NetA Inv Top Ghost NetTop.
From SP Require Port.

(* T1: tasks are appended at the tail of startedTasks, only the head's Done is awaited, the head is popped, its out-IPs are sent *)
Theorem C08_code_conforms :
  skel_eqb skel_Process_Run exp_Process_Run
  && skel_eqb skel_taskQueue_NextTaskDone exp_taskQueue_NextTaskDone
  && skel_eqb skel_OutPort_Send exp_OutPort_Send
  && skel_eqb skel_InPort_Send exp_InPort_Send
  && skel_eqb skel_Process_createTasks exp_Process_createTasks = true.   (* tasks are built one after the other, in the order the input sets arrive *)
Proof. vm_compute. reflexivity. Qed.

(* in every reachable state, whatever order the tasks finished in, the sequence sent on an out-edge is the sequence of
   outputs of the tasks in creation order (a prefix of it while the process is still running) *)
Theorem C08_process_order : forall (c : cfg) (len : nat -> nat) (gc : gcfg),
  wf c len -> (forall v L, slen c v = Some L -> length (sitems gc v) = L) ->
  forall sched s g, sched_ok c sched -> grun c gc (init c) ginit sched = Some (s, g) ->
  forall e, e < E c ->
  hist g e = map (outf gc (esrc c e) e) (firstn (snt (es s e)) (crt g (esrc c e))).
Proof.
  intros c len gc WF SL sched s g Hok Hrun e He.
  destruct (reachable_inv WF Hok Hrun) as [_ [_ G]].
  exact (Ghost.C08_order c gc s g G e He).
Qed.

(* and creation order is arrival order: the k-th created task holds the k-th item of every in-edge *)
Theorem C08_creation_is_arrival_order : forall (c : cfg) (len : nat -> nat) (gc : gcfg),
  wf c len -> (forall v L, slen c v = Some L -> length (sitems gc v) = L) ->
  forall sched s g, sched_ok c sched -> grun c gc (init c) ginit sched = Some (s, g) ->
  forall v k, v < nn c -> k < cN (ns s v) -> nth k (crt g v) [] = tuple_of c gc g v k.
Proof.
  intros c len gc WF SL sched s g Hok Hrun v k Hv Hk.
  destruct (reachable_inv WF Hok Hrun) as [_ [_ G]].
  exact (Ghost.C04_tasks_are_zip c gc s g G v k Hv Hk).
Qed.

(* end to end, for a completed run: an edge carries the outputs of ALL tasks of its source, in creation order *)
Theorem C08_final_order : forall (c : cfg) (len : nat -> nat) (gc : gcfg),
  wf c len -> (forall v L, slen c v = Some L -> length (sitems gc v) = L) ->
  forall sched s g, sched_ok c sched -> grun c gc (init c) ginit sched = Some (s, g) -> final c s ->
  forall e, e < E c -> hist g e = map (outf gc (esrc c e) e) (crt g (esrc c e)).
Proof.
  intros c len gc WF SL sched s g Hok Hrun HF e He.
  exact (final_hist c len gc WF s g e (reachable_inv WF Hok Hrun) HF He).
Qed.

(* items that reach a port from the same upstream keep their relative order through fan-in: in every reachable state of a
   port fed by any number of upstreams, the items received from upstream r are, in order, the first ones r sends *)
Theorem C08_fanin_order : forall (c : Port.cfg), 1 <= Port.cap c -> 1 <= Port.ns c ->
  forall l s, Port.run c (Port.init c) l = Some s ->
  forall r, r < Port.ns c -> Port.from r (Port.hist s) = firstn (Port.rcv s r) (Port.plan c r).
Proof. intros c C N l s H. exact (proj1 (Port.merge_is_orderly c C N l s H)). Qed.

(* T1, call cones (DESIGN 11.26, ExpectedCones.v): every function of scipipe reachable from the functions above is one the
   models were compared with. *)
Theorem C08_cone_conforms :
  strs_eqb cone_Process_createTasks exp_cone_Process_createTasks
  &&   strs_eqb cone_Process_Run exp_cone_Process_Run
  && strs_eqb cone_taskQueue_NextTaskDone exp_cone_taskQueue_NextTaskDone
  && strs_eqb cone_OutPort_Send exp_cone_OutPort_Send
  && strs_eqb cone_InPort_Send exp_cone_InPort_Send = true.
Proof. vm_compute. reflexivity. Qed.

Print Assumptions C08_code_conforms.
Print Assumptions C08_fanin_order.
Print Assumptions C08_process_order.
Print Assumptions C08_creation_is_arrival_order.
Print Assumptions C08_final_order.
Print Assumptions C08_cone_conforms.
