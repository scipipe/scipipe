(* C15_command: on a rendered pattern whose literals are brace free and whose placeholder values are brace free, the
   iterated global strings.Replace of formatCommand computes exactly the simultaneous substitution -- any number of
   occurrences of the same placeholder included. *)
From Coq Require Import List String Bool.
Import ListNotations.
From SP Require Import Str PathLex Format FormatParse.

Section Subst.
Variable v : str -> str.                           (* placeholder body -> replacement *)
(* i puts a string into the accumulator of the fold (Ok in format_command, whose accumulator can also be Fail); bd takes
   what the fold runs over (there: a match of the scanner) to its placeholder body *)
Context {A M : Type} (i : str -> A) (bd : M -> str) (step : A -> M -> A).

Definition subst_list (L : list str) (p : Str.piece) : Str.piece := fold_left (fun p b => subst1 b (v b) p) L p.

Lemma subst1_ok b ps : brace_free (v b) -> Forall Str.piece_ok ps -> Forall Str.piece_ok (map (subst1 b (v b)) ps).
Proof.
  intros Hv. rewrite Forall_map. apply Forall_impl.
  intros [u|b']; simpl; auto. destruct (Str.str_eqb b b'); auto.
Qed.

Theorem fold_replace (L : list M) :
  Forall (fun m => (forall c, step (i c) m = i (replace_all (ph (bd m)) (v (bd m)) c))
                   /\ brace_free (bd m) /\ brace_free (v (bd m))) L ->
  forall qs, Forall Str.piece_ok qs ->
  fold_left step L (i (Str.flat qs)) = i (Str.flat (map (subst_list (map bd L)) qs)).
Proof.
  induction 1 as [|m L (Hs & Hb & Hvb) _ IH]; intros qs Hq; simpl.
  - now rewrite map_id.
  - rewrite Hs, (replace_all_pieces _ _ qs Hb Hq), IH, map_map; auto using subst1_ok.
Qed.

Lemma subst_list_txt L u : subst_list L (Str.Txt u) = Str.Txt u.
Proof. induction L; auto. Qed.

(* a placeholder is replaced at the first entry of the list that names it, and is a literal from then on *)
Lemma subst_list_ph L b : In b L -> subst_list L (Str.Ph b) = Str.Txt (v b).
Proof.
  induction L as [|a L IH]; intros H; [destruct H|]. unfold subst_list. cbn [fold_left subst1].
  destruct (Str.str_eqb a b) eqn:E.
  - (* a = b *) apply str_eqb_eq in E. subst a. apply subst_list_txt.
  - (* a <> b: b is further on *) apply IH. destruct H as [->|H]; [now rewrite str_eqb_refl in E|exact H].
Qed.
End Subst.

(* conv: from the scanner's pieces to the replacement's (why there are two notions: at FormatParse.piece) *)
Definition body_of (k rest : str) : str := k ++ colon :: rest.
Definition conv (p : FormatParse.piece) : Str.piece :=
  match p with FormatParse.Txt u => Str.Txt u | FormatParse.PhK k rest => Str.Ph (body_of k rest) end.

Lemma render1_ph k rest : render1 k rest = ph (body_of k rest).
Proof. unfold render1, ph, body_of. change lbr with lb. change rbr with rb. rewrite <- app_assoc. reflexivity. Qed.

Lemma flat_conv ps : FormatParse.flat ps = Str.flat (map conv ps).
Proof.
  unfold FormatParse.flat, Str.flat. rewrite map_map. f_equal. apply map_ext.
  intros [u|k rest]; [reflexivity|apply render1_ph].
Qed.

Definition piece_ok2 (p : FormatParse.piece) : Prop :=
  match p with
  | FormatParse.Txt u => brace_free u
  | FormatParse.PhK k rest => In k kinds /\ rest <> [] /\ brace_free rest
  end.

(* the six kinds are made of letters: by cases on the table *)
Lemma body_brace_free k rest : In k kinds -> brace_free rest -> brace_free (body_of k rest).
Proof.
  intros Hk [R1 R2]. simpl in Hk.
  repeat (destruct Hk as [<-|Hk]; [split; firstorder discriminate|]). destruct Hk.
Qed.

Lemma brace_free_bfree u : brace_free u -> bfree u.
Proof. intros [B1 B2] c Hc. apply negb_true_iff, orb_false_iff. split; apply Ascii.eqb_neq; intros ->; tauto. Qed.

Lemma ok2_parse p : piece_ok2 p -> FormatParse.piece_ok p.
Proof.
  destruct p as [u|k rest]; simpl.
  - (* literal *) intros [H _]. exact H.
  - (* placeholder *) intros [Hk [Hr Hb]]. auto using brace_free_bfree.
Qed.

Lemma ok2_conv p : piece_ok2 p -> Str.piece_ok (conv p).
Proof.
  destruct p as [u|k rest].
  - (* literal *) auto.
  - (* placeholder *) intros [Hk [_ Hb]]. apply body_brace_free; assumption.
Qed.

Definition body (m : str * str * str) : str := let '(_, k, r) := m in body_of k r.

(* phs keeps exactly the PhK pieces, each as (render1 k r, k, r); after the induction the rest is propositional *)
Lemma in_phs l w k r : In (w, k, r) (phs l) <-> w = render1 k r /\ In (FormatParse.PhK k r) l.
Proof. induction l as [|[u|k' r'] l IH]; rewrite ?IH; firstorder congruence. Qed.

Section Command.
Variable e : env.
Variable ps : list FormatParse.piece.
Variable val : str -> str -> str.
Hypothesis OK : Forall piece_ok2 ps.
Let infos := port_infos (FormatParse.flat ps).
Hypothesis VAL : forall k rest, In (FormatParse.PhK k rest) ps ->
  replacement infos e k rest = Ok (val k rest) /\ brace_free (val k rest).

(* the value as a function of the placeholder body: the scanner reads kind and rest back from a rendered placeholder *)
Definition vfun (b : str) : str := match match_here (ph b) with Some (k, r, _) => val k r | None => [] end.

Lemma vfun_body k r : In (FormatParse.PhK k r) ps -> vfun (body_of k r) = val k r.
Proof.
  intros Hp. rewrite Forall_forall in OK. destruct (ok2_parse _ (OK _ Hp)) as (Hk & Hr & Hb).
  unfold vfun. rewrite <- render1_ph, <- (app_nil_r (render1 k r)), match_here_ph by assumption. reflexivity.
Qed.

(* the command is the concatenation of the literals and the values, in order (C15_command) *)
Theorem format_command_spec :
  format_command (FormatParse.flat ps) e =
  Ok (List.concat (map (fun p => match p with FormatParse.Txt u => u | FormatParse.PhK k rest => val k rest end) ps)).
Proof.
  unfold format_command. fold infos. rewrite (C15_parse_render ps (Forall_impl _ ok2_parse OK)), flat_conv.
  rewrite (fold_replace vfun Ok body).
  - (* piece by piece: every placeholder of the pattern is among the bodies replaced *)
    f_equal. unfold Str.flat. rewrite !map_map. f_equal. apply map_ext_in. intros [u|k r] Hp; cbn [conv].
    + (* literal *) now rewrite subst_list_txt.
    + (* placeholder *) rewrite subst_list_ph, (vfun_body k r Hp); [reflexivity|].
      apply (in_map body _ (render1 k r, k, r)), in_phs. auto.
  - (* every replacement succeeds, and body and value are brace free *)
    apply Forall_forall. intros [[w k] r] Hin. apply in_phs in Hin. destruct Hin as [-> Hp]. cbn [body].
    rewrite (vfun_body k r Hp), <- render1_ph. rewrite Forall_forall in OK. pose proof (ok2_conv _ (OK _ Hp)).
    destruct (VAL k r Hp) as [R Bv]. split; [|auto]. intros c. rewrite R. reflexivity.
  - (* the pieces are brace free *) apply Forall_map. exact (Forall_impl _ ok2_conv OK).
Qed.
End Command.

(* the modifiers mean what the documentation says *)
Lemma apply_mod_basename p : apply_mod p (s2l "basename") = after_last_slash p.
Proof. reflexivity. Qed.

Lemma apply_mod_dirname p : apply_mod p (s2l "dirname") = before_last_slash p.
Proof. reflexivity. Qed.

(* %suffix: removed when the value ends with it and is longer than it; otherwise the value is unchanged
   (suffix without the shape s/x/y/ inside, which the code would additionally treat as a substitution) *)
Lemma apply_mod_suffix p suf : find_subst (pct :: suf) = None ->
  apply_mod p (pct :: suf) =
  if Nat.ltb (length suf) (length p) && is_suffix suf p then firstn (length p - length suf) p else p.
Proof.
  intros H. unfold apply_mod. rewrite H. cbn [find_trim]. rewrite Ascii.eqb_refl.
  rewrite (proj2 (str_eqb_neq (pct :: suf) _)) by discriminate. reflexivity.
Qed.

Lemma apply_mods_cons p m ms : apply_mods p (m :: ms) = apply_mods (apply_mod p m) ms.
Proof. reflexivity. Qed.

Example mod_examples :
  l2s (apply_mods (s2l "data/foo.txt") [s2l "%.txt"; s2l "basename"]) = "foo"%string
  /\ l2s (apply_mods (s2l "data/foo.txt") [s2l "s/foo/bar/"; s2l "dirname"]) = "data"%string
  /\ l2s (apply_mods (s2l ".txt") [s2l "%.txt"]) = ".txt"%string
  /\ l2s (apply_mods (s2l "plain") [s2l "dirname"]) = "plain"%string.
Proof. vm_compute. repeat split. Qed.

(* C15_missing_fails *)
Theorem missing_value_fails cmd e whole kind rest :
  In (whole, kind, rest) (find_all cmd 0) -> replacement (port_infos cmd) e kind rest = Fail -> format_command cmd e = Fail.
Proof.
  intros Hin Hf. unfold format_command. apply fold_left_absorb with (m := (whole, kind, rest)).
  - reflexivity.
  - exact Hin.
  - intros [c|]; [|reflexivity]. rewrite Hf. reflexivity.
Qed.

(* the hypothesis on `hd`, here and in the next two: name is the port name of the placeholder's rest; it holds when name
   has no pipe and mods is empty or starts with one *)
Lemma replacement_param_missing infos e name mods pi :
  lookup name infos = Some pi -> ptype pi = s2l "p" ->
  (lookup name (e_par e) = None \/ lookup name (e_par e) = Some []) ->
  hd [] (split_on pipe (name ++ mods)) = name -> replacement infos e (s2l "p") (name ++ mods) = Fail.
Proof.
  intros Hl Ht Hv Hn. unfold replacement. rewrite Hn, Hl, Ht. simpl.
  destruct Hv as [-> | ->]; reflexivity.
Qed.

Lemma replacement_tag_missing infos e name mods pi :
  lookup name infos = Some pi -> ptype pi = s2l "t" ->
  (lookup name (e_tag e) = None \/ lookup name (e_tag e) = Some []) ->
  hd [] (split_on pipe (name ++ mods)) = name -> replacement infos e (s2l "t") (name ++ mods) = Fail.
Proof.
  intros Hl Ht Hv Hn. unfold replacement. rewrite Hn, Hl, Ht. simpl.
  destruct Hv as [-> | ->]; reflexivity.
Qed.

Lemma replacement_in_missing infos e name mods pi :
  lookup name infos = Some pi -> ptype pi = s2l "i" -> pjoin pi = None ->
  (lookup name (e_in e) = None \/ lookup name (e_in e) = Some []) ->
  hd [] (split_on pipe (name ++ mods)) = name -> replacement infos e (s2l "i") (name ++ mods) = Fail.
Proof.
  intros Hl Ht Hj Hv Hn. unfold replacement. rewrite Hn, Hl, Ht, Hj. simpl.
  destruct Hv as [-> | ->]; reflexivity.
Qed.

Lemma replacement_unknown infos e kind rest :
  lookup (hd [] (split_on pipe rest)) infos = None -> replacement infos e kind rest = Fail.
Proof. intros H. unfold replacement. now rewrite H. Qed.
