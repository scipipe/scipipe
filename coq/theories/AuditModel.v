(* Facts about the audit records the workflow model (WfModel) attaches to outputs: fields, upstream keys, tag propagation;
   and, at the end, two facts about the evaluator's [transpose_n], the zip of the in-port columns, which belong to C04
   (PropC04 states the first). *)
From Coq Require Import List Ascii Lia Bool.
Import ListNotations.
From SP Require Import Str Format TempNames WfModel.

Lemma find_filter {A} (P Q : A -> bool) l : (forall x, P x = true -> Q x = true) -> find P (filter Q l) = find P l.
Proof.
  intros H. induction l as [|a l IH]; simpl; auto.
  destruct (Q a) eqn:Qa; simpl.
  - destruct (P a); auto.
  - destruct (P a) eqn:Pa; auto. apply H in Pa. congruence.
Qed.

Lemma lookup_cons_same {V} k (v : V) l : lookup k ((k, v) :: l) = Some v.
Proof. unfold lookup. simpl. now rewrite str_eqb_refl. Qed.
Lemma lookup_app {V} k (l1 l2 : list (str * V)) :
  lookup k (l1 ++ l2) = match lookup k l1 with Some v => Some v | None => lookup k l2 end.
Proof.
  unfold lookup. induction l1 as [|[a b] l1 IH]; simpl; auto.
  destruct (PathLex.str_eqb a k); auto.
Qed.
(* the shape of [aud_set] and of AddTag's overwrite: a binding put in front, the older ones for its key filtered out *)
Lemma lookup_set_other {V} k k' (v : V) (l : list (str * V)) : k <> k' ->
  lookup k ((k', v) :: filter (fun x => negb (PathLex.str_eqb (fst x) k')) l) = lookup k l.
Proof.
  intros H. unfold lookup. simpl. assert (E : PathLex.str_eqb k' k = false) by (apply str_eqb_neq; congruence). rewrite E, find_filter; auto.
  intros x Hx. apply str_eqb_eq in Hx. apply negb_true_iff. apply str_eqb_neq. congruence.
Qed.

Lemma lookup_aud_set_same a p r : lookup p (aud_set a p r) = Some r.
Proof. apply lookup_cons_same. Qed.

Lemma lookup_aud_set_other a p q r : q <> p -> lookup q (aud_set a p r) = lookup q a.
Proof. apply lookup_set_other. Qed.

Lemma set_out_aud c r w o : w_aud (set_out c r w o) = aud_set (w_aud w) (snd (snd o)) r.
Proof. unfold set_out. destruct (fst (snd o)); reflexivity. Qed.

Lemma fold_set_sets c r outs : forall w path,
  lookup path (w_aud w) = Some r \/ In path (map (fun o => snd (snd o)) outs) ->
  lookup path (w_aud (fold_left (set_out c r) outs w)) = Some r.
Proof.
  induction outs as [|o outs IH]; intros w path H.
  - destruct H as [H|[]]. exact H.
  - (* after the first output is set, the record is on its path and stays where it was *)
    apply IH. rewrite set_out_aud.
    destruct (list_eq_dec ascii_dec path (snd (snd o))) as [->|Hne]; [left; apply lookup_aud_set_same|].
    rewrite lookup_aud_set_other by exact Hne.
    destruct H as [H|[E|H]]; [left; exact H|congruence|right; exact H].
Qed.

Lemma fold_extra_aud tok extra : forall w,
  w_aud (fold_left (fun (w : world) (x : str) => {| w_fs := fs_set (w_fs w) x tok; w_vfs := w_vfs w; w_aud := w_aud w |}) extra w) = w_aud w.
Proof. induction extra as [|x extra IH]; intros w; simpl; auto. rewrite IH. reflexivity. Qed.

Lemma add_tag_keeps k v tags kv tags' : v <> [] -> add_tag tags kv = Some tags' -> lookup k tags = Some v -> lookup k tags' = Some v.
Proof.
  unfold add_tag. intros Hv H L.
  destruct (lookup (fst kv) tags) as [old|] eqn:E.
  - destruct old as [|c old].
    + injection H as <-. destruct (list_eq_dec ascii_dec k (fst kv)) as [->|Hne].
      * congruence.
      * destruct kv as [k0 v0]. rewrite lookup_set_other by assumption. exact L.
    + destruct (PathLex.str_eqb (c :: old) (snd kv)); [|discriminate]. injection H as <-. exact L.
  - injection H as <-. rewrite lookup_app, L. reflexivity.
Qed.

Lemma add_tag_sets tags kv tags' : add_tag tags kv = Some tags' -> lookup (fst kv) tags' = Some (snd kv).
Proof.
  unfold add_tag. intros H. destruct kv as [k v]; simpl in *.
  destruct (lookup k tags) as [old|] eqn:E.
  - destruct old as [|c old].
    + injection H as <-. apply lookup_cons_same.
    + destruct (PathLex.str_eqb (c :: old) v) eqn:Q; [|discriminate]. injection H as <-.
      apply str_eqb_eq in Q. rewrite E. congruence.
  - injection H as <-. rewrite lookup_app, E. apply lookup_cons_same.
Qed.

(* AddTags, and the union of tags over the in-IPs, are folds of a step that may fail; a fold of such folds is one
   fold over the concatenation, so the union is AddTags of all the tags of all the in-IPs.  `add_tags t l` is
   `ofold add_tag l (Some t)` by definition: the proofs below pass from one to the other by conversion. *)
Section OFold.
Context {A B : Type} (f : B -> A -> option B).

Definition ofold (l : list A) (o : option B) : option B :=
  fold_left (fun acc x => match acc with Some t => f t x | None => None end) l o.

Lemma ofold_none l : ofold l None = None.
Proof. induction l; auto. Qed.

Lemma ofold_flat_map {C} (g : C -> list A) l : forall o,
  fold_left (fun acc x => match acc with Some t => ofold (g x) (Some t) | None => None end) l o = ofold (flat_map g l) o.
Proof.
  induction l as [|x l IH]; intros o; [reflexivity|]. simpl. rewrite IH. unfold ofold. rewrite fold_left_app.
  f_equal. destruct o; [reflexivity|]. symmetry. apply ofold_none.
Qed.
End OFold.

Lemma add_tags_sets k v : v <> [] -> forall kvs tags tags', add_tags tags kvs = Some tags' ->
  lookup k tags = Some v \/ In (k, v) kvs -> lookup k tags' = Some v.
Proof.
  intros Hv. induction kvs as [|kv kvs IH]; intros tags tags' H H0.
  - injection H as <-. destruct H0 as [H0|[]]. exact H0.
  - change (ofold add_tag kvs (add_tag tags kv) = Some tags') in H.
    destruct (add_tag tags kv) as [t1|] eqn:E; [|rewrite ofold_none in H; discriminate].
    apply (IH t1 tags' H). destruct H0 as [H0|[->|H0]].
    + (* it was there: AddTag keeps it *) left. exact (add_tag_keeps k v tags kv t1 Hv E H0).
    + (* it is the tag added now *) left. exact (add_tag_sets tags (k, v) t1 E).
    + (* it is added later *) right. exact H0.
Qed.

(* the union over all in-IPs: every non-empty tag of every in-IP is on the result *)
Theorem tags_union_propagates {A} (f : A -> list (str * str)) (ins : list A) : forall t0 tags x k v,
  fold_left (fun acc kv => match acc with Some t => add_tags t (f kv) | None => None end) ins (Some t0) = Some tags ->
  In x ins -> In (k, v) (f x) -> v <> [] -> lookup k tags = Some v.
Proof.
  intros t0 tags x k v H Hin Hk Hv. rewrite (ofold_flat_map add_tag f ins) in H.
  apply (add_tags_sets k v Hv (flat_map f ins) t0 tags H). right. apply in_flat_map. exists x. auto.
Qed.

Definition in_tags_of (w : world) (it : item) : list (str * str) :=
  match it with IPath q => rec_tags (rec_of w q) | ISub _ => [] end.

Theorem run_one_record p w ins pars tr w' :
  run_one p w ins pars = (tr, w') -> tr_status tr = TRun ->
  exists cmd tags,
    tr_command tr = Ok cmd /\
    fold_left (fun acc kv => match acc with Some t => add_tags t (in_tags_of w (snd kv)) | None => None end) ins (Some []) = Some tags /\
    forall o, In o (tr_outs tr) ->
      rec_of w' (snd (snd o)) =
      ARec (p_name p) cmd pars tags (map (fun o => (fst o, snd (snd o))) (tr_outs tr))
           (flat_map (fun kv => map (fun q => (q, rec_of w q)) (item_paths (snd kv))) ins).
Proof.
  unfold run_one.
  match goal with |- context [fold_left (set_out _ _) ?o w] => set (outs := o) end.
  set (fc := format_command _ _).
  (* every guard of run_one but the last gives a status other than TRun *)
  destruct (existsb _ (map _ (p_outs p))); [(* an out path fails or is invalid *) intros [= <- <-]; discriminate|].
  destruct fc as [cmd|]; [|(* the command does not format *) intros [= <- <-]; discriminate].
  destruct (existsb (fun o => negb _ && _) _); [(* an output exists: skipped *) intros [= <- <-]; discriminate|].
  destruct (fold_left _ ins (Some [])) as [tags|]; [|(* tags clash *) rewrite orb_true_r; intros [= <- <-]; discriminate].
  destruct (_ || _ || _); [(* an input is missing, or the task is made to fail *) intros [= <- <-]; discriminate|].
  intros [= <- <-] _. exists cmd, tags. split; [reflexivity|split; [reflexivity|]].
  intros o Ho. unfold rec_of. rewrite fold_extra_aud, fold_set_sets; [reflexivity|].
  right. exact (in_map (fun o => snd (snd o)) outs o Ho).
Qed.

(* the zip semantics of the reference evaluator: round k takes the k-th item of every column *)
Lemma transpose_nth {A} (d : A) n : forall cols k, k < n ->
  nth k (transpose_n d n cols) [] = map (fun col => nth k col d) cols.
Proof.
  induction n as [|n IH]; intros cols k Hk; [lia|]. cbn [transpose_n].
  destruct k as [|k].
  - apply map_ext. intros col. destruct col; reflexivity.
  - cbn [nth]. rewrite IH by lia. rewrite map_map. apply map_ext. intros col. destruct col; [destruct k; reflexivity|reflexivity].
Qed.

Lemma transpose_length {A} (d : A) n cols : length (transpose_n d n cols) = n.
Proof. revert cols. induction n as [|n IH]; intros cols; simpl; auto. Qed.
