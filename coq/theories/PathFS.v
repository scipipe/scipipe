(* C13 at the level of path segments and a file store with directories: where the file written at an output placeholder
   ends up, how an input placeholder resolves from inside the temp directory, where additional files go.

   Paths are lists of segments.  An output path is canonical: k leading "..", then proper segments (not "", ".", ".."),
   or absolute.  [enc] is FileIP.TempPath on canonical paths none of whose segments ends in ".." (PathBridge.nice; the
   complement is finding D15): "../" becomes the text "__parent__" glued to what follows, a leading "/" becomes the
   segment "__fsroot__".  The store maps absolute segment lists to nodes; [mkdir_all], [write] and [rename] behave as
   os.MkdirAll / a shell redirection / os.Rename (within one file system, no symlinks). *)
From Coq Require Import List Ascii String Lia Bool.
Import ListNotations.
From SP Require Import Lib Str PathLex.

Definition seg := str.
Definition PHs : str := list_ascii_of_string "__parent__".
Definition FSR : str := list_ascii_of_string "__fsroot__".
Definition dd : seg := [dot; dot].

Definition properb (g : seg) : bool := negb (str_eqb g []) && negb (str_eqb g [dot]) && negb (str_eqb g dd) && negb (existsb (Ascii.eqb sl) g).
Definition proper (g : seg) : Prop := properb g = true.

(* lexical resolution of a relative segment list against an absolute directory (kept reversed) *)
Fixpoint res_rev (st : list seg) (rel : list seg) : list seg :=
  match rel with
  | [] => st
  | g :: r => if str_eqb g [] || str_eqb g [dot] then res_rev st r
              else if str_eqb g dd then res_rev (tl st) r
              else res_rev (g :: st) r
  end.
Definition resolve (cwd : list seg) (rel : list seg) : list seg := rev (res_rev (rev cwd) rel).

Inductive opath :=
| ORel (k : nat) (segs : list seg)      (* k times "../", then segs *)
| OAbs (segs : list seg).

Fixpoint rep {A} (k : nat) (x : list A) : list A := match k with O => [] | S n => x ++ rep n x end.

Definition rel_of (p : opath) : list seg :=          (* the declared path as written *)
  match p with ORel k segs => rep k [dd] ++ segs | OAbs segs => segs end.

Definition target (cwd : list seg) (p : opath) : list seg :=
  match p with ORel k segs => resolve cwd (rep k [dd] ++ segs) | OAbs segs => segs end.

Definition enc (p : opath) : list seg :=
  match p with
  | ORel O segs => segs
  | ORel (S k) [] => [rep (S k) PHs]
  | ORel (S k) (s :: r) => (rep (S k) PHs ++ s) :: r
  | OAbs segs => FSR :: segs
  end.

Definition canonical (p : opath) : Prop :=
  match p with ORel _ segs | OAbs segs => segs <> [] /\ Forall proper segs end.

Inductive node := File (c : nat) | Dir.
Definition store := list seg -> option node.

Fixpoint seg_list_eqb (a b : list seg) : bool :=
  match a, b with
  | [], [] => true
  | x :: r, y :: r' => str_eqb x y && seg_list_eqb r r'
  | _, _ => false
  end.

Lemma seg_list_eqb_eq a : forall b, seg_list_eqb a b = true <-> a = b.
Proof.
  induction a as [|x r IH]; intros [|y r']; simpl; split; intros H; try discriminate; auto.
  - apply andb_true_iff in H. destruct H as [H1 H2]. apply str_eqb_eq in H1. apply IH in H2. now subst.
  - injection H as -> ->. rewrite str_eqb_refl. now apply IH.
Qed.

Definition put (f : store) (p : list seg) (n : node) : store := fun q => if seg_list_eqb q p then Some n else f q.
Definition del (f : store) (p : list seg) : store := fun q => if seg_list_eqb q p then None else f q.

Definition is_dir (f : store) (p : list seg) : bool := match p with [] => true | _ => match f p with Some Dir => true | _ => false end end.

(* os.MkdirAll: every prefix becomes a directory (fails on a file in the way: not needed here) *)
Fixpoint mkdir_from (f : store) (base : list seg) (rest : list seg) : store :=
  match rest with
  | [] => f
  | g :: r => mkdir_from (put f (base ++ [g]) Dir) (base ++ [g]) r
  end.
Definition mkdir_all (f : store) (p : list seg) : store := mkdir_from f [] p.

Definition parent (p : list seg) : list seg := removelast p.

Definition write (f : store) (p : list seg) (c : nat) : option store :=
  if is_dir f (parent p) then Some (put f p (File c)) else None.

Definition rename (f : store) (a b : list seg) : option store :=
  match f a with
  | Some (File c) => if is_dir f (parent b) then Some (put (del f a) b (File c)) else None
  | _ => None
  end.

(* what a task does with one output *)
Definition task_out (cwd : list seg) (D : seg) (p : opath) (c : nat) (f : store) : option store :=
  let tdir := cwd ++ [D] in
  let f1 := mkdir_all (mkdir_all f tdir) (tdir ++ parent (enc p)) in               (* Task.createDirs *)
  match write f1 (resolve tdir (enc p)) c with                                     (* the command, cd'ed into the temp dir, writes at {o:..} = TempPath *)
  | None => None
  | Some f2 =>
    let f3 := mkdir_all f2 (cwd ++ parent (enc p)) in                              (* WriteAuditLogToFile: ip.createDirs("") *)
    rename f3 (cwd ++ [D] ++ enc p) (target cwd p)                                 (* FinalizePaths: tempExecDir + "/" + TempPath -> Path *)
  end.

Lemma proper_iff g : proper g <-> g <> [] /\ g <> [dot] /\ g <> dd /\ ~ In sl g.
Proof.
  unfold proper, properb. rewrite <- !and_assoc. apply andb_iff; [apply andb_iff; [apply andb_iff|]|].
  - apply negb_iff, str_eqb_neq.
  - apply negb_iff, str_eqb_neq.
  - apply negb_iff, str_eqb_neq.
  - apply negb_iff, (existsb_notIn_eqb Ascii.eqb_eq).
Qed.

Lemma res_rev_proper rel : Forall proper rel -> forall st, res_rev st rel = rev rel ++ st.
Proof.
  induction 1 as [|g r Hg Hr IH]; intros st; simpl; auto.
  apply proper_iff in Hg. destruct Hg as (A & B & C & _).
  rewrite !(proj2 (str_eqb_neq _ _)) by assumption. simpl. rewrite IH. now rewrite <- app_assoc.
Qed.

Lemma resolve_proper cwd rel : Forall proper rel -> resolve cwd rel = cwd ++ rel.
Proof. intros H. unfold resolve. rewrite res_rev_proper by assumption. now rewrite rev_app_distr, !rev_involutive. Qed.

Lemma rep_PHs_head k s : exists t, rep (S k) PHs ++ s = "_"%char :: t.
Proof. eexists. reflexivity. Qed.

Lemma no_slash_PHs : existsb (Ascii.eqb sl) PHs = false.
Proof. reflexivity. Qed.

Lemma no_slash_rep k : ~ In sl (rep k PHs).
Proof.
  induction k as [|k IH]; [tauto|]. intros H. apply in_app_or in H. destruct H as [H|H]; [|exact (IH H)].
  revert H. apply (existsb_notIn_eqb Ascii.eqb_eq), no_slash_PHs.
Qed.

Lemma proper_glued k s : proper s -> proper (rep (S k) PHs ++ s).
Proof.
  intros Hs. apply proper_iff in Hs. destruct Hs as (_ & _ & _ & Hs). apply proper_iff.
  repeat split; try discriminate. (* the text starts with "__" *)
  intros H. apply in_app_or in H. destruct H as [H|H]; [exact (no_slash_rep _ H)|exact (Hs H)].
Qed.

Lemma proper_FSR : proper FSR.
Proof. reflexivity. Qed.

(* the temp path of a canonical output path consists of proper segments only: no "..", relative *)
Theorem enc_proper p : canonical p -> Forall proper (enc p) /\ enc p <> [].
Proof.
  destruct p as [[|k] segs|segs]; intros [Hne Hp].
  - split; assumption.
  - destruct segs as [|s r]; [congruence|]. apply Forall_cons_iff in Hp. destruct Hp as [Hs Hr]. split; [|discriminate].
    constructor; [apply proper_glued, Hs|exact Hr].
  - split; [|discriminate]. constructor; [apply proper_FSR|exact Hp].
Qed.

(* ... hence, from inside the temp dir, it names a location beneath the temp dir: the very location FinalizePaths renames *)
Theorem temp_location cwd D p : canonical p -> resolve (cwd ++ [D]) (enc p) = cwd ++ [D] ++ enc p.
Proof. intros H. destruct (enc_proper p H) as [Hp _]. rewrite resolve_proper by assumption. now rewrite <- app_assoc. Qed.

(* an input referenced as "../" ++ q from inside the temp dir cwd/D is the input itself, for every relative q (leading
   "..", ".", empty segments included); resolution is lexical, so nothing about D is used *)
Theorem in_resolves cwd D q : proper D -> resolve (cwd ++ [D]) (dd :: q) = resolve cwd q.
Proof.
  intros _. unfold resolve. rewrite rev_app_distr. reflexivity.
Qed.

Lemma put_same f p n : put f p n p = Some n.
Proof. unfold put. now rewrite (proj2 (seg_list_eqb_eq p p) eq_refl). Qed.
Lemma put_other f p n q : q <> p -> put f p n q = f q.
Proof. unfold put. intros H. destruct (seg_list_eqb q p) eqn:E; auto. apply seg_list_eqb_eq in E. congruence. Qed.
Lemma del_same f p : del f p p = None.
Proof. unfold del. now rewrite (proj2 (seg_list_eqb_eq p p) eq_refl). Qed.
Lemma del_other f p q : q <> p -> del f p q = f q.
Proof. unfold del. intros H. destruct (seg_list_eqb q p) eqn:E; auto. apply seg_list_eqb_eq in E. congruence. Qed.

Lemma is_dir_put_same f p : is_dir (put f p Dir) p = true.
Proof. destruct p; [reflexivity|]. unfold is_dir. now rewrite put_same. Qed.
Lemma is_dir_put_other f p n q : q <> p -> is_dir (put f p n) q = is_dir f q.
Proof. intros H. unfold is_dir. now rewrite put_other. Qed.
Lemma is_dir_put_dir f p q : is_dir f q = true -> is_dir (put f p Dir) q = true.
Proof. intros H. destruct q as [|a q]; [reflexivity|]. unfold is_dir, put. now destruct (seg_list_eqb (a :: q) p). Qed.

(* MkdirAll seen from the last segment; the facts about it below go by induction from that end *)
Lemma mkdir_from_snoc rest : forall f base g,
  mkdir_from f base (rest ++ [g]) = put (mkdir_from f base rest) (base ++ rest ++ [g]) Dir.
Proof.
  induction rest as [|h r IH]; intros f base g; cbn [app mkdir_from]; [reflexivity|].
  rewrite IH. now rewrite <- app_assoc.
Qed.

Lemma mkdir_all_snoc f p g : mkdir_all f (p ++ [g]) = put (mkdir_all f p) (p ++ [g]) Dir.
Proof. apply mkdir_from_snoc. Qed.

Lemma mkdir_all_is_dir f p : is_dir (mkdir_all f p) p = true.
Proof. induction p as [|g p _] using rev_ind; [reflexivity|]. rewrite mkdir_all_snoc. apply is_dir_put_same. Qed.

Lemma mkdir_all_keeps_dir f p q : is_dir f q = true -> is_dir (mkdir_all f p) q = true.
Proof.
  intros H. induction p as [|g p IH] using rev_ind; [exact H|]. rewrite mkdir_all_snoc. apply is_dir_put_dir, IH.
Qed.

Lemma mkdir_all_longer f p q : length p < length q -> mkdir_all f p q = f q.
Proof.
  induction p as [|g p IH] using rev_ind; intros L; [reflexivity|]. rewrite last_length in L.
  rewrite mkdir_all_snoc, put_other; [apply IH; lia|]. intros ->. rewrite last_length in L. lia.
Qed.

Lemma removelast_app_last {A} (l : list A) x : removelast (l ++ [x]) = l.
Proof. apply removelast_last. Qed.

Lemma parent_app (a b : list seg) : b <> [] -> parent (a ++ b) = a ++ parent b.
Proof. intros H. unfold parent. apply removelast_app. exact H. Qed.

Lemma parent_length (p : list seg) : p <> [] -> S (length (parent p)) = length p.
Proof.
  intros H. destruct (exists_last H) as [l [x ->]]. unfold parent. rewrite removelast_last, last_length. reflexivity.
Qed.

Definition beneath (a b : list seg) : Prop := exists x, b = a ++ x.

(* a path that is not beneath the temp dir is not the temp file cwd/D/e, and neither is its parent *)
Lemma outside cwd D e t : ~ beneath (cwd ++ [D]) t -> t <> cwd ++ [D] ++ e /\ parent t <> cwd ++ [D] ++ e.
Proof.
  intros H. split; intros E; apply H.
  - exists e. now rewrite <- app_assoc.
  - destruct t as [|y l _] using rev_ind; [destruct cwd; discriminate E|].
    unfold parent in E. rewrite removelast_last in E. exists (e ++ [y]). now rewrite E, <- !app_assoc.
Qed.

Lemma rename_lands g src dst c :
  g src = Some (File c) -> is_dir g (parent dst) = true -> dst <> src ->
  exists f', rename g src dst = Some f' /\ f' dst = Some (File c) /\ f' src = None.
Proof.
  intros Hs Hd Hne. unfold rename. rewrite Hs, Hd. eexists. split; [reflexivity|]. split.
  - apply put_same.
  - rewrite put_other by congruence. apply del_same.
Qed.

(* the last step of FinalizePaths, for a declared output and for an additional file alike *)
Lemma move_lands g cwd D e dst c :
  e <> [] -> g (cwd ++ [D] ++ e) = Some (File c) ->
  parent dst = cwd ++ parent e \/ is_dir g (parent dst) = true ->
  dst <> cwd ++ [D] ++ e ->
  exists f', rename (mkdir_all g (cwd ++ parent e)) (cwd ++ [D] ++ e) dst = Some f' /\
             f' dst = Some (File c) /\ f' (cwd ++ [D] ++ e) = None.
Proof.
  intros He Hs Hd Hne. apply rename_lands; [| |exact Hne].
  - rewrite mkdir_all_longer; [exact Hs|]. rewrite !app_length, <- (parent_length e He). lia.
  - destruct Hd as [->|Hd]; [apply mkdir_all_is_dir|apply mkdir_all_keeps_dir, Hd].
Qed.

(* For a canonical output whose destination lies outside the task's temp dir and, when outside cwd, in an existing
   directory: the step succeeds; the written file is at the declared path and gone from the temp dir.  (That D is one
   proper segment is not used.)  The first condition, `~ beneath (cwd ++ [D]) (target cwd p)`, is an assumption on the
   declared path: nothing here derives it from the way temp-dir names are formed. *)
Theorem out_lands cwd D p c f :
  canonical p -> proper D ->
  (match p with ORel O _ => True | _ => is_dir f (parent (target cwd p)) = true end) ->
  ~ beneath (cwd ++ [D]) (target cwd p) ->
  exists f', task_out cwd D p c f = Some f' /\ f' (target cwd p) = Some (File c) /\ f' (cwd ++ [D] ++ enc p) = None.
Proof.
  intros Hc _ Hdir Hout. unfold task_out.
  destruct (enc_proper p Hc) as [Hp Hne]. rewrite (temp_location cwd D p Hc).
  destruct (outside cwd D (enc p) _ Hout) as [Hsrc Hpar].
  (* the command's write succeeds: createDirs has made the directory *)
  unfold write.
  rewrite <- (parent_app (cwd ++ [D]) _ Hne), <- app_assoc, mkdir_all_is_dir.
  apply move_lands; [exact Hne|apply put_same| |exact Hsrc].
  destruct p as [[|k] segs|segs].
  - (* beneath the working directory: the directory is the one the audit write makes *)
    left. destruct Hc as [Hs Hps]. cbn [target enc rep app]. rewrite resolve_proper by exact Hps. apply parent_app, Hs.
  - (* parent-relative: the directory was there before, MkdirAll keeps it, and it is not the file just written *)
    right. rewrite is_dir_put_other by exact Hpar. repeat apply mkdir_all_keeps_dir. exact Hdir.
  - (* absolute: likewise *)
    right. rewrite is_dir_put_other by exact Hpar. repeat apply mkdir_all_keeps_dir. exact Hdir.
Qed.

(* an additional file the command left at the relative location r of its working directory is moved to the same relative
   location under the workflow's directory (FinalizePaths: MkdirAll of the directory, then rename), whatever lay there
   before *)
Definition move_extra (cwd : list seg) (D : seg) (r : list seg) (f : store) : option store :=
  rename (mkdir_all f (cwd ++ parent r)) (cwd ++ [D] ++ r) (cwd ++ r).

(* (that r and D consist of proper segments is not used) *)
Theorem extra_lands cwd D r c f :
  Forall proper r -> r <> [] -> proper D ->
  f (cwd ++ [D] ++ r) = Some (File c) ->
  ~ beneath (cwd ++ [D]) (cwd ++ r) ->
  exists f', move_extra cwd D r f = Some f' /\ f' (cwd ++ r) = Some (File c) /\ f' (cwd ++ [D] ++ r) = None.
Proof.
  intros _ Hne _ Hf Hout. apply move_lands; [exact Hne|exact Hf|left; apply parent_app, Hne|].
  apply (outside cwd D r _ Hout).
Qed.

(* from here on, and in every file that imports PathFS (PathBridge does), [S] is this, not nat's successor *)
Definition S (x : string) : seg := list_ascii_of_string x.
(* non-vacuity: "../sib/out.txt" from /w with temp dir "t": the file lands in /sib/out.txt *)
Example out_lands_example :
  let cwd := [S "w"] in let p := ORel 1 [S "sib"; S "out.txt"] in
  let f0 : store := put (fun _ => None) [S "sib"] Dir in
  enc p = [S "__parent__sib"; S "out.txt"] /\ target cwd p = [S "sib"; S "out.txt"] /\
  match task_out cwd (S "t") p 7 f0 with Some f' => f' [S "sib"; S "out.txt"] = Some (File 7) | None => False end.
Proof. vm_compute. repeat split. Qed.
