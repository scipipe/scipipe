(* C17 liveness: with a slot for the producer, one for the consumer if it executes, and a pipe of capacity >= 1 the
   streaming pair never gets stuck before both tasks are done and the pipe is removed -- for every payload and every schedule. *)
From Coq Require Import List Arith Lia.
From SP Require Lib.
From SP Require Import Stream.

(* hp, hc: 1 while the producer / the consumer holds its slot token (from its Acquire to its Release) *)
Definition hp (p : ppc) : nat := match p with POpening | PWriting _ | PExited | PAudited => 1 | _ => 0 end.
Definition hc (q : cpc) : nat := match q with COpening | CReading | CExited | CAudited _ | CFinal => 1 | _ => 0 end.
Definition c_opened (q : cpc) : bool := match q with CReading | CDraining | CExited | CAudited _ | CFinal | CReleased | CDone => true | _ => false end.
(* the same function as Stream.c_after_eof *)
Definition c_exited (q : cpc) : bool := match q with CExited | CAudited _ | CFinal | CReleased | CDone => true | _ => false end.
Definition p_opened (p : ppc) : bool := match p with PWaitSlot | POpening => false | _ => true end.
Definition p_exited (p : ppc) : bool := match p with PExited | PAudited | PReleased | PDone => true | _ => false end.

(* what the pair holds of the shared slot tokens *)
Definition held (s : st) : nat := hp (pp s) + hc (cp s).
(* what it may hold at most: the producer's slot, and the consumer's unless the consumer is skipped *)
Definition demand (c : cfg) : nat := if skip c then 1 else 2.

(* the part of the invariant that does not mention the tokens *)
Record LInvO (s : st) : Prop := {
  l_open : c_opened (cp s) = p_opened (pp s);
  l_closed : wclosed s = p_exited (pp s);
  l_cexit : c_exited (cp s) = true -> wclosed s = true
}.
Record LInv (s : st) : Prop := { l_tok : tokens s = held s; l_o : LInvO s }.

Lemma init_linvO c : LInvO (init c).
Proof. constructor; auto; discriminate. Qed.
Lemma init_linv c : LInv (init c).
Proof. constructor; [reflexivity|apply init_linvO]. Qed.

Lemma step_linvO c s a s' : LInvO s -> step c s a = Some s' -> LInvO s'.
Proof.
  intros [Iopen Iclosed Icexit] H. apply step_Step in H.
  (* search only: a rule moves pp or cp between states on which the indicators agree, or flips both sides of an equation
     together (AOpenBoth those of l_open, PExit those of l_closed); at CEof the writer end is closed; the mode matters at AForward *)
  destruct H; constructor; simpl; auto; try discriminate.
  all: destruct (skip c); auto; discriminate.
Qed.

Lemma step_tokens c s a s' : held s <= tokens s -> step c s a = Some s' -> tokens s' + held s = tokens s + held s'.
Proof.
  unfold held. intros G H. apply step_Step in H.
  destruct H; simpl in *; try reflexivity; try lia.
  destruct (skip c); simpl; lia.
Qed.

Lemma step_linv c s a s' : LInv s -> step c s a = Some s' -> LInv s'.
Proof.
  intros [T O] H. constructor; [|eapply step_linvO; eauto].
  pose proof (step_tokens c s a s' ltac:(lia) H). lia.
Qed.

Lemma reach_linv c l s : run c (init c) l = Some s -> LInv s.
Proof. apply (Lib.run_invariant (step c) (run c)); [reflexivity|reflexivity|exact (step_linv c)|exact (init_linv c)]. Qed.

Definition finished (s : st) : Prop := pp s = PDone /\ cp s = CDone /\ fifo s = false.

Lemma pair_progress c s :
  LInvO s -> 1 <= pipecap c ->
  (pp s = PWaitSlot \/ cp s = CWaitSlot -> tokens s < slots c) ->
  fifo s = true \/ pp s <> PDone \/ cp s <> CDone ->
  exists a, step c s a <> None.
Proof.
  intros [Iopen Iclosed Icexit] Hc Tok Hun. destruct s as [f w b se g p q t pa o]; simpl in *. subst w.
  rewrite <- Nat.ltb_lt in Tok.
  (* the producer moves on its own, except where it waits for the consumer: to open, to make room, to finish *)
  destruct p as [| |[|x r]| | | |]; simpl.
  - (* PWaitSlot *) exists PAcquire. simpl. now rewrite Tok by auto.
  - (* POpening: the consumer has not opened, so it is on its way there, or both open *)
    destruct q; try discriminate Iopen.
    + (* CNone *) exists AForward. discriminate.
    + (* CWaitSlot *) exists CAcquire. simpl. now rewrite Tok by auto.
    + (* COpening *) exists AOpenBoth. discriminate.
    + (* CSkipOpen *) exists AOpenBoth. discriminate.
  - (* PWriting [] *) exists PExit. discriminate.
  - (* PWriting (x :: r): an empty pipe has room; one with bytes in it has a consumer that has opened and not seen EOF *)
    destruct b as [|y b].
    + exists PWrite. simpl. now rewrite (proj2 (Nat.ltb_lt 0 _) Hc).
    + destruct q; try discriminate Iopen; try discriminate (Icexit eq_refl).
      all: exists CRead; discriminate.
  - (* PExited *) exists PSetAudit. discriminate.
  - (* PAudited *) exists PRelease. discriminate.
  - (* PReleased *) exists PDoneA. discriminate.
  - (* PDone: the writer end is closed, the consumer has opened *)
    destruct q; try discriminate Iopen.
    + (* CReading *) destruct b; [exists CEof; discriminate|exists CRead; discriminate].
    + (* CExited *) exists CAudit. discriminate.
    + (* CAudited *) exists CFinalize. discriminate.
    + (* CFinal *) exists CRelease. discriminate.
    + (* CReleased *) exists CDoneA. discriminate.
    + (* CDone *) destruct Hun as [->|[F|F]]; try congruence. exists ARemoveFifo. discriminate.
    + (* CDraining *) destruct b; [exists CEof; discriminate|exists CRead; discriminate].
Qed.

Lemma held_le_demand {c s} : DInv c s -> held s <= demand c.
Proof.
  intros D. unfold held, demand.
  assert (P : hp (pp s) <= 1) by (destruct (pp s); simpl; lia).
  destruct (skip c) eqn:K.
  - destruct (dinv_skipped D K) as [_ Q]. destruct (cp s); try discriminate Q; simpl; lia.
  - destruct (cp s); simpl; lia.
Qed.

Lemma held_lt_demand {c s} : DInv c s -> pp s = PWaitSlot \/ cp s = CWaitSlot -> held s < demand c.
Proof.
  intros D W. unfold held, demand. destruct (skip c) eqn:K.
  - destruct (dinv_skipped D K) as [_ Q]. destruct W as [W|W]; rewrite W in *; simpl; try discriminate.
    destruct (cp s); simpl in *; lia.
  - destruct W as [W|W]; rewrite W; [destruct (cp s)|destruct (pp s)]; simpl; lia.
Qed.

Theorem stream_progress c l s :
  demand c <= slots c -> 1 <= pipecap c ->
  run c (init c) l = Some s -> fifo s = true \/ pp s <> PDone \/ cp s <> CDone ->
  exists a, step c s a <> None.
Proof.
  intros Hs Hc R Hun. pose proof (reach_linv c l s R) as [T O].
  pose proof (reach_dinv R) as D.
  apply pair_progress; auto. intros W. pose proof (held_lt_demand D W). lia.
Qed.

Definition prank (p : ppc) : nat :=
  match p with PWaitSlot => 6 | POpening => 5 | PWriting _ => 4 | PExited => 3 | PAudited => 2 | PReleased => 1 | PDone => 0 end.
Definition crank (q : cpc) : nat :=
  match q with CNone => 8 | CWaitSlot => 7 | COpening => 6 | CSkipOpen => 6 | CReading => 5 | CDraining => 5 | CExited => 4 | CAudited _ => 3 | CFinal => 2 | CReleased => 1 | CDone => 0 end.
Definition measure (c : cfg) (s : st) : nat :=
  2 * length (prest (pp s) c) + length (buf s) + prank (pp s) + crank (cp s) + (if fifo s then 1 else 0).

(* otherwise simpl spells the 2 * _ of measure out as a sum, on both sides, in each of the eighteen cases *)
Local Arguments Nat.mul : simpl never.

Theorem stream_step_decreases c s a s' : step c s a = Some s' -> measure c s' < measure c s.
Proof.
  intros H. apply step_Step in H. unfold measure.
  destruct H; simpl; rewrite ?app_length; simpl; try lia.
  destruct (skip c); simpl; lia.
Qed.
