(* The placeholder scanner finds exactly the placeholders of a rendered pattern (C15_parse_render). *)
From Coq Require Import List Ascii Arith.
Import ListNotations.
Require Import Str PathLex Format.

(* A second notion of piece beside Str.piece: the scanner needs kind and rest apart, the replacement only a brace-free
   body; FormatCommand.conv maps these pieces to those. *)
Inductive piece := Txt (u : str) | PhK (k rest : str).

Definition render1 (k rest : str) : str := lbr :: k ++ colon :: rest ++ [rbr].
Definition pstr (p : piece) : str := match p with Txt u => u | PhK k rest => render1 k rest end.
Definition flat (ps : list piece) : str := List.concat (map pstr ps).

Definition no_lbr (u : str) := ~ In lbr u.
(* bfree: brace-free as the scanner tests it (Format.nobrace); Str.brace_free implies it (FormatCommand.brace_free_bfree) *)
Definition bfree (u : str) := forall c, In c u -> nobrace c = true.

Definition piece_ok (p : piece) : Prop :=
  match p with
  | Txt u => no_lbr u
  | PhK k rest => In k kinds /\ rest <> [] /\ bfree rest
  end.

(* the matches the scanner should report: (whole match, kind, rest), as find_all lists them *)
Fixpoint phs (ps : list piece) : list (str * str * str) :=
  match ps with
  | [] => []
  | Txt _ :: r => phs r
  | PhK k rest :: r => (render1 k rest, k, rest) :: phs r
  end.

Lemma span_stop (f : ascii -> bool) u c t :
  (forall x, In x u -> f x = true) -> f c = false -> span f (u ++ c :: t) = (u, c :: t).
Proof.
  intros Hu Hc. induction u as [|a u IH]; simpl.
  - rewrite Hc. reflexivity.
  - rewrite (Hu a) by (left; reflexivity). rewrite IH by (intros x Hx; apply Hu; right; exact Hx). reflexivity.
Qed.

(* the colon makes the six kinds prefix-free ("o:" is no prefix of "os:..."), so the first kind that matches is k itself:
   by cases on the table *)
Lemma find_kind k r : In k kinds -> find (fun k' => prefixb (k' ++ [colon]) ((k ++ [colon]) ++ r)) kinds = Some k.
Proof.
  intros H.
  repeat (destruct H as [<-|H]; [reflexivity|]). destruct H.
Qed.

Lemma render1_app k rest tail : render1 k rest ++ tail = lbr :: (k ++ [colon]) ++ rest ++ rbr :: tail.
Proof. unfold render1. cbn [app]. rewrite <- !app_assoc. cbn [app]. now rewrite <- app_assoc. Qed.

Lemma render1_length k rest : length (render1 k rest) = length k + length rest + 3.
Proof.
  unfold render1. cbn [length]. rewrite app_length. cbn [length].
  rewrite last_length, !Nat.add_succ_r, Nat.add_0_r. reflexivity.
Qed.

Lemma firstn_exact {A} (u r : list A) : firstn (length u) (u ++ r) = u.
Proof. induction u; simpl; congruence. Qed.
Lemma skipn_exact {A} (u r : list A) : skipn (length u) (u ++ r) = r.
Proof. induction u; simpl; congruence. Qed.

Lemma match_here_ph k rest tail : In k kinds -> rest <> [] -> bfree rest ->
  match_here (render1 k rest ++ tail) = Some (k, rest, length k + length rest + 3).
Proof.
  intros Hk Hr Hb. rewrite render1_app. unfold match_here. rewrite Ascii.eqb_refl, find_kind by exact Hk.
  rewrite Nat.add_1_r, <- (last_length k colon), skipn_exact.
  rewrite (span_stop nobrace rest rbr tail Hb eq_refl).
  destruct rest as [|c r]; [congruence|]. rewrite Ascii.eqb_refl. reflexivity.
Qed.

Lemma match_here_txt c s : c <> lbr -> match_here (c :: s) = None.
Proof. intros H. unfold match_here. destruct (Ascii.eqb_spec c lbr); [congruence|reflexivity]. Qed.

Lemma find_all_skip u : forall tail, find_all (u ++ tail) (length u) = find_all tail 0.
Proof. induction u as [|c r IH]; intros tail; simpl; auto. Qed.

Lemma find_all_txt u : forall tail, no_lbr u -> find_all (u ++ tail) 0 = find_all tail 0.
Proof.
  induction u as [|c r IH]; intros tail H; [reflexivity|]. cbn [app find_all].
  rewrite match_here_txt by (intros ->; apply H; left; reflexivity). apply IH. intros E. apply H. right; exact E.
Qed.

Lemma find_all_ph k rest tail : In k kinds -> rest <> [] -> bfree rest ->
  find_all (render1 k rest ++ tail) 0 = (render1 k rest, k, rest) :: find_all tail 0.
Proof.
  intros Hk Hr Hb. pose proof (match_here_ph k rest tail Hk Hr Hb) as M. rewrite <- render1_length in M.
  unfold render1 in *. cbn [app] in *. cbn [find_all]. rewrite M. f_equal.
  - f_equal. f_equal. apply (firstn_exact (lbr :: _)).
  - cbn [length Nat.sub]. rewrite Nat.sub_0_r. apply find_all_skip.
Qed.

Theorem C15_parse_render ps : Forall piece_ok ps -> find_all (flat ps) 0 = phs ps.
Proof.
  induction 1 as [|p ps Hp Hps IH]; [reflexivity|].
  unfold flat in *. cbn [map List.concat]. destruct p as [u|k rest]; cbn [pstr phs piece_ok].
  - rewrite find_all_txt by assumption. exact IH.
  - destruct Hp as [Hk [Hr Hb]]. rewrite find_all_ph by assumption. now rewrite IH.
Qed.
Print Assumptions C15_parse_render.
