(* Go strings.Replace(s, old, new, -1) for non-empty old: its result holds no occurrence of old when new shares no
   character with old (C13), and it acts piece-wise on a rendered pattern (formatCommand, C15).  Also what the string
   files share: string equality, a fold that keeps a failure. *)
From Coq Require Import List Ascii PeanoNat Bool.
Import ListNotations.

Definition str := list ascii.

Lemma fold_left_absorb {A B} (step : A -> B -> A) (bad : A) (ms : list B) (m : B) (a : A) :
  (forall x, step bad x = bad) -> In m ms -> (forall a', step a' m = bad) -> fold_left step ms a = bad.
Proof.
  intros Hbad Hin Hm. apply in_split in Hin. destruct Hin as [l1 [l2 ->]].
  rewrite fold_left_app. simpl. rewrite Hm. induction l2 as [|x l2 IH]; simpl; [reflexivity|]. now rewrite Hbad.
Qed.

Fixpoint prefixb (p s : str) : bool :=
  match p, s with
  | [], _ => true
  | a :: p', b :: s' => Ascii.eqb a b && prefixb p' s'
  | _ :: _, [] => false
  end.

Lemma prefixb_spec p s : prefixb p s = true <-> exists r, s = p ++ r.
Proof.
  revert s; induction p as [|a p IH]; intros s; simpl.
  - split; eauto.
  - destruct s as [|b s]; [split; [discriminate|intros [r H]; discriminate]|].
    rewrite andb_true_iff, IH, Ascii.eqb_eq. split.
    + intros [-> [r ->]]. eauto.
    + intros [r H]. inversion H. eauto.
Qed.

Lemma prefixb_app p s : prefixb p (p ++ s) = true.
Proof. apply prefixb_spec. eauto. Qed.

(* leftmost, non-overlapping replacement of every occurrence; `skip` characters
   of the current match still have to be dropped *)
Fixpoint ra (old new s : str) (skip : nat) : str :=
  match s with
  | [] => []
  | c :: r =>
    match skip with
    | S k => ra old new r k
    | O => if prefixb old s then new ++ ra old new r (length old - 1) else c :: ra old new r 0
    end
  end.

Definition replace_all (old new s : str) : str := ra old new s 0.

Lemma ra_skip old new u r : ra old new (u ++ r) (length u) = ra old new r 0.
Proof. induction u; auto. Qed.

Lemma replace_all_match old new r : old <> [] -> replace_all old new (old ++ r) = new ++ replace_all old new r.
Proof.
  destruct old as [|c o]; [congruence|]. intros _. unfold replace_all. cbn [app ra].
  change (c :: o ++ r) with ((c :: o) ++ r). rewrite prefixb_app. f_equal.
  cbn [length Nat.sub]. rewrite Nat.sub_0_r. apply ra_skip.
Qed.

Lemma replace_all_copy old new c r :
  (forall x, c :: r <> old ++ x) -> replace_all old new (c :: r) = c :: replace_all old new r.
Proof.
  intros H. unfold replace_all. cbn [ra]. destruct (prefixb old (c :: r)) eqn:P; [|reflexivity].
  apply prefixb_spec in P. destruct P as [x E]. destruct (H x E).
Qed.

Lemma replace_all_free c0 oldr new u r :
  ~ In c0 u -> replace_all (c0 :: oldr) new (u ++ r) = u ++ replace_all (c0 :: oldr) new r.
Proof.
  induction u as [|a u IH]; intros Hn; [reflexivity|]. cbn [app]. rewrite replace_all_copy.
  - f_equal. apply IH. intros H. apply Hn. right; exact H.
  - intros x E. injection E as -> _. apply Hn. left; reflexivity.
Qed.

Lemma replace_all_id old new d s : In d old -> ~ In d s -> replace_all old new s = s.
Proof.
  intros Hd. induction s as [|c r IH]; intros Hn; [reflexivity|]. rewrite replace_all_copy.
  - f_equal. apply IH. intros H. apply Hn. right; exact H.
  - intros x E. apply Hn. rewrite E. apply in_or_app. left; exact Hd.
Qed.

Lemma prefixb_replace_all old new p : new <> [] ->
  (forall c, In c new -> ~ In c p) -> forall s, prefixb p (replace_all old new s) = true -> prefixb p s = true.
Proof.
  intros Hn. induction p as [|a p IH]; intros Hd s H; [reflexivity|].
  destruct s as [|c r]; [discriminate H|].
  unfold replace_all in H. cbn [ra] in H. destruct (prefixb old (c :: r)).
  - destruct new as [|d new']; [congruence|]. apply andb_true_iff in H. destruct H as [E _].
    apply Ascii.eqb_eq in E. subst d. exfalso. apply (Hd a); left; reflexivity.
  - cbn [prefixb]. apply andb_true_iff in H. destruct H as [E H]. rewrite E. apply IH; [|exact H].
    intros x Hx Hp. apply (Hd x Hx). right; exact Hp.
Qed.

Lemma no_old_app old u t : (forall c, In c u -> ~ In c old) ->
  (forall k, prefixb old (skipn k t) = false) -> forall k, prefixb old (skipn k (u ++ t)) = false.
Proof.
  intros Hu Ht. induction u as [|d u IH]; [exact Ht|].
  intros [|k]; [|apply IH; intros c Hc; apply Hu; right; exact Hc].
  destruct old as [|a o]; [exact (Ht 0)|]. cbn [skipn app prefixb].
  destruct (Ascii.eqb_spec a d) as [->|]; [|reflexivity]. exfalso. apply (Hu d); left; reflexivity.
Qed.

(* An occurrence of old in the result cannot overlap a copy of new (no_old_app); so it lies in a copied stretch, where it
   is an occurrence in the input (prefixb_replace_all) at a position the scan has passed without a match. *)
Theorem replace_all_no_old old new : old <> [] -> new <> [] -> (forall c, In c new -> ~ In c old) ->
  forall s k, prefixb old (skipn k (replace_all old new s)) = false.
Proof.
  intros Ho Hn Hd s. unfold replace_all.
  enough (G : forall skip k, prefixb old (skipn k (ra old new s skip)) = false) by exact (G 0).
  induction s as [|c r IH]; intros skip k.
  - rewrite skipn_nil. destruct old; [congruence|reflexivity].
  - destruct skip as [|j]; cbn [ra]; [|apply IH].
    destruct (prefixb old (c :: r)) eqn:M.
    + apply no_old_app; [exact Hd|]. apply IH.
    + destruct k as [|k]; [|apply IH]. cbn [skipn].
      (* a match at the copied character would continue in the result of the rest, hence in the rest *)
      destruct (prefixb old (c :: ra old new r 0)) eqn:P; [|reflexivity].
      destruct old as [|a o]; [congruence|]. cbn [prefixb] in P, M. apply andb_true_iff in P. destruct P as [E P].
      rewrite E in M. apply (prefixb_replace_all (a :: o) new o Hn) in P; [rewrite P in M; discriminate M|].
      intros x Hx Hxo. apply (Hd x Hx). right; exact Hxo.
Qed.

Definition lb : ascii := "{"%char.
Definition rb : ascii := "}"%char.
Definition brace_free (u : str) := ~ In lb u /\ ~ In rb u.

(* a rendered placeholder: { body } with brace-free body *)
Definition ph (body : str) : str := lb :: body ++ [rb].

Lemma app_sep_inj (d : ascii) b1 b2 r1 r2 :
  ~ In d b1 -> ~ In d b2 -> b1 ++ d :: r1 = b2 ++ d :: r2 -> b1 = b2 /\ r1 = r2.
Proof.
  revert b2; induction b1 as [|a b1 IH]; intros [|c b2] H1 H2 E; simpl in *.
  - inversion E; auto.
  - inversion E; subst. exfalso. apply H2. left; reflexivity.
  - inversion E; subst. exfalso. apply H1. left; reflexivity.
  - inversion E. destruct (IH b2) as [-> ->]; auto.
Qed.

Lemma ph_app b r : ph b ++ r = lb :: b ++ rb :: r.
Proof. unfold ph. cbn [app]. now rewrite <- app_assoc. Qed.

Lemma replace_all_ph_other new ob b r :
  brace_free ob -> brace_free b -> ob <> b ->
  replace_all (ph ob) new (ph b ++ r) = ph b ++ replace_all (ph ob) new r.
Proof.
  intros [_ Ho] [Hb1 Hb2] Hne. rewrite !ph_app. rewrite replace_all_copy.
  - f_equal. unfold ph. rewrite replace_all_free by exact Hb1.
    apply (f_equal (app b)). (* the closing brace is not an opening brace: *) reflexivity.
  - intros r' E. rewrite ph_app in E. injection E as E.
    destruct (app_sep_inj rb b ob _ _ Hb2 Ho E) as [Eb _]. congruence.
Qed.

(* pieces: the shape of a rendered pattern during substitution *)
Inductive piece := Txt (u : str) | Ph (body : str).
Definition piece_ok (p : piece) := match p with Txt u => brace_free u | Ph b => brace_free b end.
Definition pstr (p : piece) : str := match p with Txt u => u | Ph b => ph b end.
Definition flat (ps : list piece) : str := concat (map pstr ps).

Definition str_eqb (a b : str) : bool := if list_eq_dec ascii_dec a b then true else false.

(* PathLex.str_eqb has the same body: these lemmas apply to it as they stand *)
Lemma str_eqb_eq a b : str_eqb a b = true <-> a = b.
Proof. unfold str_eqb. destruct (list_eq_dec ascii_dec a b); split; congruence. Qed.
Lemma str_eqb_neq a b : str_eqb a b = false <-> a <> b.
Proof. unfold str_eqb. destruct (list_eq_dec ascii_dec a b); split; congruence. Qed.
Lemma str_eqb_refl a : str_eqb a a = true.
Proof. now apply str_eqb_eq. Qed.

Definition subst1 (ob new : str) (p : piece) : piece :=
  match p with
  | Txt u => Txt u
  | Ph b => if str_eqb ob b then Txt new else Ph b
  end.

Theorem replace_all_pieces ob new ps :
  brace_free ob -> Forall piece_ok ps ->
  replace_all (ph ob) new (flat ps) = flat (map (subst1 ob new) ps).
Proof.
  intros Hob Hok. unfold flat. induction Hok as [|p ps Hp Hps IH]; [reflexivity|].
  cbn [map concat]. destruct p as [u|b]; cbn [pstr subst1 piece_ok].
  - unfold ph. rewrite replace_all_free by apply Hp. fold (ph ob). now rewrite IH.
  - unfold str_eqb. destruct (list_eq_dec ascii_dec ob b) as [->|Hne].
    + rewrite replace_all_match by discriminate. now rewrite IH.
    + rewrite replace_all_ph_other by assumption. now rewrite IH.
Qed.
Print Assumptions replace_all_pieces.
