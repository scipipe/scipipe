(* C18 -- A joined in-port receives the whole sub-stream, once, in order. *)
From Coq Require Import List String Arith Bool.
Import ListNotations.
From SP Require Import Skel Gen Expected ExpectedCones PathLex Format WfModel.

(* T1: NewTask drains the sub-stream channel of every joined port until it is closed, before the command is formatted;
   Process.Run / createTasks are the modelled ones (one task per carrier received) *)
Theorem C18_code_conforms :
  skel_eqb skel_NewTask exp_NewTask
  && skel_eqb skel_Process_createTasks exp_Process_createTasks
  && skel_eqb skel_BaseProcess_receiveOnInPorts exp_BaseProcess_receiveOnInPorts
  && skel_eqb skel_Task_writeAuditLogs exp_Task_writeAuditLogs
  && strs_eqb regexps_Process_initPortsFromCmdPattern exp_regexps_Process_initPortsFromCmdPattern = true.
Proof. vm_compute. reflexivity. Qed.

(* the stream-to-substream adapter emits exactly one carrier, whose members are the items of its upstream, in order *)
Theorem C18_one_carrier : forall (idx : nat) (name : str) (u : nat) (up : str) (sel : list nat) (a : acc),
  existsb (Nat.eqb idx) sel = true ->
  st_get (a_streams (eval_from idx [NS2S name u up] sel a)) idx (s2l "substream")
  = [ISub (flat_map item_paths (st_get (a_streams a) u up))].
Proof.
  intros idx name u up sel a H. simpl. rewrite H. unfold st_get. simpl.
  rewrite Nat.eqb_refl. reflexivity.
Qed.

(* the column that one carrier makes on a joined port has one item, and its one row is the carrier whole: the two values
   from which `eval_proc` forms the rounds of a process (one round here); the statement does not mention `eval_proc` *)
Theorem C18_once : forall (ms : list str),
  min_len [[ISub ms]] = 1 /\ transpose_n (IPath []) 1 [[ISub ms]] = [[ISub ms]].
Proof. intros ms. split; reflexivity. Qed.

(* in the command, the placeholder of a joined port expands to the members, in order, each made resolvable from the
   task's working directory, separated by the separator -- for every length, 0 included *)
Theorem C18_command : forall (infos : list (str * pinfo)) (e : env) (name sep : str) (mods : list str) (ms : list str) (rest : str),
  lookup name infos = Some {| ptype := s2l "i"; pjoin := Some sep |} ->
  lookup name (e_sub e) = Some ms ->
  existsb (fun m => match apply_mods m mods with [] => true | _ => false end) ms = false ->
  split_on pipe rest = name :: mods ->
  replacement infos e (s2l "i") rest = Ok (join_with sep (map (fun m => prepend_parent (apply_mods m mods)) ms)).
Proof.
  intros infos e name sep mods ms rest Hi Hs Hne Hsp.
  unfold replacement. rewrite Hsp. cbn [hd tl]. rewrite Hi. rewrite Hs, Hne. reflexivity.
Qed.

(* each member is resolvable from inside the temp dir: relative paths get one "../", absolute paths stay *)
Theorem C18_resolvable : forall q : str, q <> [] ->
  (hd sl q = sl -> prepend_parent q = q) /\ (hd sl q <> sl -> prepend_parent q = (s2l "../" ++ q)%list).
Proof.
  intros q Hq. destruct q as [|c r]; [congruence|]. unfold prepend_parent. simpl hd. split; intros H.
  - subst c. reflexivity.
  - destruct (Ascii.eqb_spec c sl); [congruence|reflexivity].
Qed.

(* worked example: three members, separator ":", a suffix modifier *)
Theorem C18_example :
  format_command (s2l "cat {i:x|join::|%.txt} > {o:out}")
     {| e_in := [(s2l "x", s2l "carrier")]; e_sub := [(s2l "x", [s2l "a.txt"; s2l "d/b.txt"; s2l "/abs/c.txt"])];
        e_out := [(s2l "out", s2l "res.txt")]; e_par := []; e_tag := [] |}
  = Ok (s2l "cat ../a:../d/b:/abs/c > res.txt").
Proof. vm_compute. reflexivity. Qed.

(* T1, call cones (DESIGN 11.26, ExpectedCones.v): every function of scipipe reachable from the functions above is one the
   models were compared with. *)
Theorem C18_cone_conforms :
  strs_eqb cone_NewTask exp_cone_NewTask
  && strs_eqb cone_Process_createTasks exp_cone_Process_createTasks
  && strs_eqb cone_BaseProcess_receiveOnInPorts exp_cone_BaseProcess_receiveOnInPorts
  && strs_eqb cone_Task_writeAuditLogs exp_cone_Task_writeAuditLogs = true.
Proof. vm_compute. reflexivity. Qed.

Print Assumptions C18_code_conforms.
Print Assumptions C18_one_carrier.
Print Assumptions C18_once.
Print Assumptions C18_command.
Print Assumptions C18_resolvable.
Print Assumptions C18_example.
Print Assumptions C18_cone_conforms.
