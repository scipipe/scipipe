(* C10 -- Every output carries a complete and faithful audit record.
   Models: WfModel.run_one (what a successful task stores on each of its outputs) and Audit (the incremental construction
   of provenance over a history of tasks vs the recursive lineage). *)
From Coq Require Import List String Bool.
Import ListNotations.
From SP Require Import Skel Gen Expected ExpectedCones PathLex Format WfModel Audit AuditModel.
From SP Require AuditFS.

(* T1: writeAuditLogs (Upstream from the in-IPs' snapshots, members for joined ports; OutFiles; a copy per out-IP; tags of
   the in-IPs merged; the file written), the tag accessors, NewFileIP loading <path>.audit.json, the tagging component *)
Theorem C10_code_conforms :
  skel_eqb skel_Task_writeAuditLogs exp_Task_writeAuditLogs
  && skel_eqb skel_FileIP_AddTag exp_FileIP_AddTag && skel_eqb skel_FileIP_AddTags exp_FileIP_AddTags
  && skel_eqb skel_FileIP_Tags exp_FileIP_Tags && skel_eqb skel_FileIP_auditInfoSnapshot exp_FileIP_auditInfoSnapshot
  && skel_eqb skel_FileIP_SetAuditInfo exp_FileIP_SetAuditInfo && skel_eqb skel_FileIP_AuditInfo exp_FileIP_AuditInfo
  && skel_eqb skel_FileIP_WriteAuditLogToFile exp_FileIP_WriteAuditLogToFile
  && skel_eqb skel_UnmarshalAuditInfoJSONFile exp_UnmarshalAuditInfoJSONFile
  && skel_eqb skel_NewFileIP exp_NewFileIP
  && skel_eqb skel_Task_Execute exp_Task_Execute
  && skel_eqb skel_Process_createTasks exp_Process_createTasks
  && skel_eqb skel_components_MapToTags_Run exp_components_MapToTags_Run = true.
Proof. vm_compute. reflexivity. Qed.

(* the audit file is written after the command and before the outputs are checked and renamed *)
Theorem C10_order_facts :
  call_before "t.executeCommand" "t.writeAuditLogs" exp_Task_Execute
  && call_before "t.writeAuditLogs" "t.finalizePaths" exp_Task_Execute = true.
Proof. vm_compute. reflexivity. Qed.

(* every output of a successfully executed task carries a record with the process name, the exact formatted command,
   the parameter values, all out paths, and -- keyed by input path, members of joined ports included -- the record each
   input carried; for every process, world, input set and parameter set *)
Theorem C10_record_fields : forall (p : proc) (w : world) (ins : list (str * item)) (pars : list (str * str)) (tr : trec) (w' : world),
  run_one p w ins pars = (tr, w') -> tr_status tr = TRun ->
  exists cmd tags,
    tr_command tr = Ok cmd /\
    fold_left (fun acc kv => match acc with Some t => add_tags t (in_tags_of w (snd kv)) | None => None end) ins (Some []) = Some tags /\
    forall o, In o (tr_outs tr) ->
      rec_of w' (snd (snd o)) =
      ARec (p_name p) cmd pars tags (map (fun o => (fst o, snd (snd o))) (tr_outs tr))
           (flat_map (fun kv => map (fun q => (q, rec_of w q)) (item_paths (snd kv))) ins).
Proof. exact AuditModel.run_one_record. Qed.

(* recursively back to the sources: over any history of tasks, the record found on a path is the full lineage of that path *)
Theorem C10_upstream_is_lineage : forall (P : Type) (ts : list (atask P)) (x : nat),
  get P (build P ts) x = lin P (rev ts) x.
Proof. exact Audit.build_is_lineage. Qed.

(* tags attached upstream are present downstream: every non-empty tag on the record of a (non-joined) input is on the
   record of every output *)
Theorem C10_tags_propagate : forall (p : proc) (w : world) (ins : list (str * item)) (pars : list (str * str)) (tr : trec) (w' : world),
  run_one p w ins pars = (tr, w') -> tr_status tr = TRun ->
  forall port q k v o, In (port, IPath q) ins -> In (k, v) (rec_tags (rec_of w q)) -> v <> [] -> In o (tr_outs tr) ->
  lookup k (rec_tags (rec_of w' (snd (snd o)))) = Some v.
Proof.
  intros p w ins pars tr w' H St port q k v o Hin Hk Hv Ho.
  destruct (AuditModel.run_one_record p w ins pars tr w' H St) as [cmd [tags [_ [Ht Hr]]]].
  rewrite (Hr o Ho).
  apply (tags_union_propagates (fun kv : str * item => in_tags_of w (snd kv)) ins [] tags (port, IPath q) k v Ht Hin); auto.
Qed.

(* a source file that gets a tag (grp), through a process, a stream-to-substream and a process that joins the sub-stream *)
Definition d13_nodes : list node :=
  [ NSrc (s2l "s") [s2l "m.txt"];
    NMapTags (s2l "tg") 0 (s2l "out") (s2l "grp");
    NProc {| p_name := s2l "pre"; p_kind := KCat; p_tok := []; p_fail := FNone; p_failkey := []; p_pattern := s2l "cat {i:a} > {o:o}";
             p_ins := [{| ip_name := s2l "a"; ip_ups := [(1, s2l "out")] |}]; p_pars := []; p_outs := [{| op_name := s2l "o"; op_pat := Some (s2l "{i:a}.pre") |}]; p_extra := [] |};
    NS2S (s2l "s2s") 2 (s2l "o");
    NProc {| p_name := s2l "joiner"; p_kind := KCat; p_tok := []; p_fail := FNone; p_failkey := []; p_pattern := s2l "cat {i:a|join:,} > {o:o}";
             p_ins := [{| ip_name := s2l "a"; ip_ups := [(3, s2l "substream")] |}]; p_pars := []; p_outs := [{| op_name := s2l "o"; op_pat := Some (s2l "joined.txt") |}]; p_extra := [] |} ].
(* finding D13: tags of sub-stream members are not merged -- the joined task's record has no tag although its upstream
   record (the member) has one *)
Theorem C10_substream_tags_refuted :
  match eval d13_nodes [] [(s2l "m.txt", s2l "x")] with
  | WDone _ _ false aud =>
    match lookup (s2l "joined.txt") aud with
    | Some (ARec _ _ _ tags _ up) => (tags, map (fun x => (l2s (fst x), map (fun t => (l2s (fst t), l2s (snd t))) (rec_tags (snd x)))) up)
    | None => ([], [])
    end
  | _ => ([], [])
  end = ([], [("m.txt.pre"%string, [("grp"%string, "m.txt"%string)])]).
Proof. vm_compute. reflexivity. Qed.

(* T1, call cones (DESIGN 11.26, ExpectedCones.v): every function of scipipe reachable from the functions above is one the
   models were compared with. *)
Theorem C10_cone_conforms :
  strs_eqb cone_Task_writeAuditLogs exp_cone_Task_writeAuditLogs
  && strs_eqb cone_FileIP_AddTag exp_cone_FileIP_AddTag
  && strs_eqb cone_FileIP_AddTags exp_cone_FileIP_AddTags
  && strs_eqb cone_FileIP_Tags exp_cone_FileIP_Tags
  && strs_eqb cone_FileIP_auditInfoSnapshot exp_cone_FileIP_auditInfoSnapshot
  && strs_eqb cone_FileIP_SetAuditInfo exp_cone_FileIP_SetAuditInfo
  && strs_eqb cone_FileIP_AuditInfo exp_cone_FileIP_AuditInfo
  && strs_eqb cone_FileIP_WriteAuditLogToFile exp_cone_FileIP_WriteAuditLogToFile
  && strs_eqb cone_UnmarshalAuditInfoJSONFile exp_cone_UnmarshalAuditInfoJSONFile
  && strs_eqb cone_NewFileIP exp_cone_NewFileIP
  && strs_eqb cone_Task_Execute exp_cone_Task_Execute
  && strs_eqb cone_Process_createTasks exp_cone_Process_createTasks
  && strs_eqb cone_components_MapToTags_Run exp_cone_components_MapToTags_Run = true.
Proof. vm_compute. reflexivity. Qed.

(* the record is there whenever the output is (AuditFS.audited; the order in the code: C10_audit_order_in_code below): in
   every reachable state -- every schedule, every kill instant -- a declared output path that no longer holds its initial
   content has the record of its own task next to it *)
Theorem C10_every_final_output_is_audited : forall (c : TaskFS.cfg) (f0 : Result.fs) (left0 : nat -> bool), TInv.wfc c ->
  forall l s, AuditFS.arun c false (AuditFS.ainit c f0 left0) l = Some s ->
  forall t x, t < TaskFS.nt c -> In x (Result.tout (TaskFS.tk c t)) -> TaskFS.fin (AuditFS.base s) x <> f0 x -> AuditFS.aud s x = Some t.
Proof. exact AuditFS.audited. Qed.

(* = C10_order_facts *)
Theorem C10_audit_order_in_code :
  call_before "t.executeCommand" "t.writeAuditLogs" exp_Task_Execute
  && call_before "t.writeAuditLogs" "t.finalizePaths" exp_Task_Execute = true.
Proof. exact C10_order_facts. Qed.

(* with the other order (the record written into the temp dir and moved after the renames) a kill leaves a final output without
   its record, and the re-run, which skips the task, never writes it *)
Theorem C10_late_record_refuted :
  exists s, AuditFS.arun AuditFS.one true (AuditFS.ainit AuditFS.one (fun _ => None) (fun _ => false))
              [TaskFS.AStart 0; TaskFS.AChkTemp 0; TaskFS.AChkOut 0; TaskFS.AMkTemp 0; TaskFS.ACmdOk 0 []; TaskFS.AEnsure 0 [0]; TaskFS.ARename 0] = Some s
            /\ TaskFS.fin (AuditFS.base s) 0 = Some 42 /\ AuditFS.aud s 0 = None.
Proof. exact AuditFS.late_record_refuted. Qed.

(* non-vacuity: on the schedule of C10_late_record_refuted the order of the code leaves the output final with its record
   next to it *)
Theorem C10_audited_nonvacuous :
  exists s, AuditFS.arun AuditFS.one false (AuditFS.ainit AuditFS.one (fun _ => None) (fun _ => false))
              [TaskFS.AStart 0; TaskFS.AChkTemp 0; TaskFS.AChkOut 0; TaskFS.AMkTemp 0; TaskFS.ACmdOk 0 []; TaskFS.AEnsure 0 [0]; TaskFS.ARename 0] = Some s
            /\ TaskFS.fin (AuditFS.base s) 0 = Some 42 /\ AuditFS.aud s 0 = Some 0.
Proof. exact AuditFS.audited_nonvacuous. Qed.

Print Assumptions C10_code_conforms.
Print Assumptions C10_order_facts.
Print Assumptions C10_record_fields.
Print Assumptions C10_upstream_is_lineage.
Print Assumptions C10_tags_propagate.
Print Assumptions C10_substream_tags_refuted.
Print Assumptions C10_cone_conforms.
Print Assumptions C10_every_final_output_is_audited.
Print Assumptions C10_audit_order_in_code.
Print Assumptions C10_late_record_refuted.
Print Assumptions C10_audited_nonvacuous.
