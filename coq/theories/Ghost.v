(* Item histories on top of the counting network model, as ghost state updated beside NetA.step: what every edge has
   carried, the input tuple of every task created, what the round in progress holds.  GInv are the equations between
   them that C04 (tasks are the zip of the in-port streams) and C08 (emission in creation order) state. *)
From Coq Require Import List.
Import ListNotations.
Require Import NetA Inv.

Definition item := nat.

Record gcfg := {
  sitems : nat -> list item;                      (* what a source emits *)
  outf   : nat -> nat -> list item -> item        (* node, out-edge, input tuple -> emitted item *)
}.

Record gst := {
  hist : nat -> list item;            (* per edge: everything ever sent, in order *)
  crt  : nat -> list (list item);     (* per node: input tuples of the tasks created, in order *)
  cur  : nat -> list (nat * item)     (* per node: items received in the current round *)
}.

Definition ginit : gst := {| hist := fun _ => []; crt := fun _ => []; cur := fun _ => [] |}.

Fixpoint alookup (y : nat) (l : list (nat * item)) : item :=
  match l with [] => 0 | (k, a) :: r => if Nat.eqb k y then a else alookup y r end.

(* the history update that goes with a successful [step c s a]: s is the state BEFORE that step, and of the step's guards
   only those are repeated that the update needs to find its edge or item (none for AHand) *)
Definition gstep (c : cfg) (gc : gcfg) (s : st) (g : gst) (a : act) : gst :=
  match a with
  | ARecv v =>
    match ct (ns s v) with
    | CtRecv (y :: _) _ =>
      if Nat.ltb (rcv (es s y)) (snt (es s y))
      then {| hist := hist g; crt := crt g;
              cur := upd (cur g) v ((y, nth (rcv (es s y)) (hist g y) 0) :: cur g v) |}
      else g
    | _ => g
    end
  | AHand v =>
    let tuple := match slen c v with
                 | Some _ => [nth (cN (ns s v)) (sitems gc v) 0]
                 | None => map (fun y => alookup y (cur g v)) (ins c v)
                 end in
    {| hist := hist g; crt := upd (crt g) v (crt g v ++ [tuple]); cur := upd (cur g) v [] |}
  | ASend v =>
    match rn (ns s v) with
    | RSend (x :: _) =>
      {| hist := upd (hist g) x (hist g x ++ [outf gc v x (nth (eN (ns s v)) (crt g v) [])]);
         crt := crt g; cur := cur g |}
    | _ => g
    end
  | _ => g
  end.

Section Ghost.
Variable c : cfg.
Variable gc : gcfg.

Definition tuple_of (g : gst) (v k : nat) : list item :=
  match slen c v with
  | Some _ => [nth k (sitems gc v) 0]
  | None => map (fun y => nth k (hist g y) 0) (ins c v)
  end.

Record GInv (s : st) (g : gst) : Prop := {
  g_len  : forall e, e < E c -> length (hist g e) = snt (es s e);
  g_emit : forall e, e < E c -> hist g e = map (outf gc (esrc c e) e) (firstn (snt (es s e)) (crt g (esrc c e)));
  g_crtn : forall v, v < nn c -> length (crt g v) = cN (ns s v);
  g_crt  : forall v k, v < nn c -> k < cN (ns s v) -> nth k (crt g v) [] = tuple_of g v k;
  g_cur  : forall v y, v < nn c -> In y (ins c v) ->
           (match ct (ns s v) with
            | CtRecv todo false => ~ In y todo
            | CtHand => slen c v = None
            | _ => False end) ->
           alookup y (cur g v) = nth (cN (ns s v)) (hist g y) 0
}.

(* C08 for one process: emission follows creation order, whatever order the tasks finished in (PropC08.C08_process_order) *)
Theorem C08_order s g : GInv s g -> forall e, e < E c ->
  hist g e = map (outf gc (esrc c e) e) (firstn (snt (es s e)) (crt g (esrc c e))).
Proof. intros G e He. apply (g_emit s g G e He). Qed.

(* C04: the created tasks are the zip of the in-edge histories (PropC04.C04_tasks_are_zip) *)
Theorem C04_tasks_are_zip s g : GInv s g -> forall v k, v < nn c -> k < cN (ns s v) ->
  nth k (crt g v) [] = tuple_of g v k.
Proof. intros G v k Hv Hk. apply (g_crt s g G v k Hv Hk). Qed.

End Ghost.
