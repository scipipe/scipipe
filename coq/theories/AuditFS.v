(* Audit files beside outputs, on top of TaskFS.

   Task.Execute calls writeAuditLogs after the command and before ensureAllOutputsExist / finalizePaths
   (PropC10.C10_order_facts), and WriteAuditLogToFile writes <final path>.audit.json directly -- not into the temp directory.
   So the record of an output is on disk before the output is renamed to its final path.  `late = false` is that order;
   `late = true` is a variant in which the record reaches its place only after the renames (as when it is written into the
   temp dir and moved with the remaining files). *)
From Coq Require Import List PeanoNat.
Import ListNotations.
Require Import Lib Result TaskFS TInv Cor.

Record ast := { base : st; aud : nat -> option nat }.     (* aud x = Some t: the record written by task t lies next to path x *)

Fixpoint set_all (f : nat -> option nat) (xs : list nat) (t : nat) : nat -> option nat :=
  match xs with [] => f | x :: r => set_all (upd f x (Some t)) r t end.

Lemma set_all_out f xs t x : ~ In x xs -> set_all f xs t x = f x.
Proof.
  revert f. induction xs as [|y r IH]; intros f H; [reflexivity|]. simpl.
  rewrite IH by (intros X; apply H; right; exact X). apply upd_other. intros ->. apply H. left; reflexivity.
Qed.

Lemma set_all_in f xs t x : In x xs -> set_all f xs t x = Some t.
Proof.
  revert f. induction xs as [|y r IH]; intros f H; [destruct H|]. simpl.
  destruct (in_dec Nat.eq_dec x r) as [I|N]; [exact (IH _ I)|].
  destruct H as [->|H]; [|contradiction]. rewrite set_all_out by exact N. apply upd_same.
Qed.

Section AuditFS.
Variable c : cfg.
Variable late : bool.

(* ACmdOk stands for the command's exit and writeAuditLogs together (task.go:291-296): the records are written, one rename each
   (ip.go:377-384), before anything is finalized, so a kill in between leaves [fin] as before ACmdOk and only records that
   [audited] does not ask for. *)
Definition astep (s : ast) (a : act) : option ast :=
  match step c (base s) a with
  | None => None
  | Some s' =>
    Some {| base := s';
            aud := match a with
                   | ACmdOk t _ => if late then aud s else set_all (aud s) (tout (tk c t)) t
                   | AEndRen t => if late then set_all (aud s) (tout (tk c t)) t else aud s
                   | _ => aud s
                   end |}
  end.

Fixpoint arun (s : ast) (l : list act) : option ast :=
  match l with [] => Some s | a :: r => match astep s a with Some s' => arun s' r | None => None end end.

Lemma arun_base l : forall s s', arun s l = Some s' -> run c (base s) l = Some (base s').
Proof.
  induction l as [|a r IH]; simpl; intros s s' H; [injection H as <-; reflexivity|].
  unfold astep in H. destruct (step c (base s) a) as [s1|]; [|discriminate]. apply (IH _ _ H).
Qed.

End AuditFS.

Section Audited.
Variable c : cfg.
Variable f0 : fs.
Variable left0 : nat -> bool.
Hypothesis WF : wfc c.

Definition ainit : ast := {| base := init c f0 left0; aud := fun _ => None |}.

Definition AInv (s : ast) : Prop :=
  forall t x, t < nt c -> In x (tout (tk c t)) -> past_cmd (pcs (base s) t) = true -> aud s x = Some t.

Lemma astep_inv s a s' : AInv s -> astep c false s a = Some s' -> AInv s'.
Proof.
  intros I H. unfold astep in H. destruct (step c (base s) a) as [s1|] eqn:S; [|discriminate]. injection H as <-.
  apply step_Step in S as (L & S). intros t x Ht Hx P. simpl.
  destruct (Step_past_cmd _ _ _ _ S t P) as [B|[omit ->]]; [|apply set_all_in; exact Hx].
  (* t was past its command already: its records are there, and those another task writes now lie elsewhere *)
  specialize (I t x Ht Hx B). destruct a as [| | | | |t0 omit| | | | |]; try exact I.
  (* left: ACmdOk t0, the one action that writes records *)
  destruct (Nat.eq_dec t0 t) as [->|N]; [apply set_all_in; exact Hx|].
  rewrite set_all_out; [exact I|]. intros X. exact (w_disj c WF t0 t x L Ht N X Hx).
Qed.

Lemma ainit_inv : AInv ainit.
Proof. intros t x _ _ P. discriminate. Qed.

(* in every reachable state -- every schedule, every kill instant -- a declared output path whose content is no longer the
   initial one has the audit record of its own task next to it.  That is what lets a re-run that skips the task (C02, C03)
   still load the lineage (C11), and what C10's "every output has a complete record" needs at crash points. *)
Theorem audited l s : arun c false ainit l = Some s ->
  forall t x, t < nt c -> In x (tout (tk c t)) -> fin (base s) x <> f0 x -> aud s x = Some t.
Proof.
  intros R t x Ht Hx D.
  assert (I : AInv s).
  { apply (run_invariant (astep c false) (arun c false)) with (l := l) (s := ainit);
      [reflexivity|reflexivity|exact astep_inv|exact ainit_inv|exact R]. }
  assert (RB : reachable c f0 left0 (base s)) by (exists l; exact (arun_base c false l _ _ R)).
  destruct (TInv.C01_atomic c f0 left0 (base s) (reach_inv WF RB) t x Ht Hx) as [E|(P & _)]; [contradiction|].
  exact (I t x Ht Hx P).
Qed.

End Audited.

Definition one : cfg := {| nt := 1; tk := fun _ => {| tin := []; tout := [0]; sem := fun _ => Some [42] |} |}.

(* the other order ([late = true]), killed after the rename of the output: the output is final, its record is not there --
   and a re-run skips the task *)
Theorem late_record_refuted :
  exists s, arun one true (ainit one (fun _ => None) (fun _ => false))
                 [AStart 0; AChkTemp 0; AChkOut 0; AMkTemp 0; ACmdOk 0 []; AEnsure 0 [0]; ARename 0] = Some s
            /\ fin (base s) 0 = Some 42 /\ aud s 0 = None.
Proof. eexists. split; [vm_compute; reflexivity|]. split; reflexivity. Qed.

Example audited_nonvacuous :
  exists s, arun one false (ainit one (fun _ => None) (fun _ => false))
                 [AStart 0; AChkTemp 0; AChkOut 0; AMkTemp 0; ACmdOk 0 []; AEnsure 0 [0]; ARename 0] = Some s
            /\ fin (base s) 0 = Some 42 /\ aud s 0 = Some 0.
Proof. eexists. split; [vm_compute; reflexivity|]. split; reflexivity. Qed.
