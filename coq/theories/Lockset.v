(* C12, the lock discipline: traces of acquire / release / access events, who holds a mutex when, happens-before;
   two accesses made while holding a common mutex are ordered by happens-before (C12_lockset_sound). *)
From Coq Require Import PeanoNat.

Inductive ev := Acq (t l : nat) | Rel (t l : nat) | Acc (t x : nat) (w : bool) | Other (t : nat).

Section Trace.
Variable tr : nat -> ev.       (* the trace, event n happens at time n *)
Variable N : nat.              (* its length *)

(* who holds lock l just before event n *)
Fixpoint holder (n l : nat) : option nat :=
  match n with
  | O => None
  | S k => match tr k with
           | Acq t l' => if Nat.eqb l' l then Some t else holder k l
           | Rel t l' => if Nat.eqb l' l then None else holder k l
           | _ => holder k l
           end
  end.

(* mutexes are mutual exclusion; only the holder unlocks *)
Definition valid : Prop := forall n, n < N ->
  match tr n with
  | Acq t l => holder n l = None
  | Rel t l => holder n l = Some t
  | _ => True
  end.

Definition thread (e : ev) := match e with Acq t _ | Rel t _ | Acc t _ _ | Other t => t end.

Inductive hb : nat -> nat -> Prop :=
| hb_po i j : i < j -> j < N -> thread (tr i) = thread (tr j) -> hb i j
| hb_sw i j t t' l : i < j -> j < N -> tr i = Rel t l -> tr j = Acq t' l -> hb i j
| hb_trans i k j : hb i k -> hb k j -> hb i j.

Hypothesis V : valid.

Lemma holder_S j l :
  (exists t, tr j = Acq t l /\ holder (S j) l = Some t) \/ (exists t, tr j = Rel t l /\ holder (S j) l = None) \/
  holder (S j) l = holder j l.
Proof. simpl. destruct (tr j) as [t l'|t l'| |]; auto; destruct (Nat.eqb_spec l' l) as [->|]; eauto. Qed.

(* The lock hands the order on.  Let event i be made by the thread that holds l.  From then on every event of the thread
   that holds l comes after i, and while l is free every acquire of l does: an acquire synchronises with the release
   before it, and what a thread does after its acquire follows that in program order. *)
Lemma lock_carries_order i l : holder i l = Some (thread (tr i)) -> forall j, i < j -> j <= N ->
  match holder j l with
  | Some t => forall k, j <= k -> k < N -> thread (tr k) = t -> hb i k
  | None => forall k t, j <= k -> k < N -> tr k = Acq t l -> hb i k
  end.
Proof.
  intros Hi j Hij. induction Hij as [|j Hij IH]; intros HjN; assert (Vj := V _ HjN).
  - (* j = S i *) destruct (holder_S i l) as [[t [E _]]|[[t [E ->]]| ->]].
    + (* i acquires l: but l is held *) rewrite E, Hi in Vj. discriminate Vj.
    + (* i releases l *) intros k t' Hk HkN A. exact (hb_sw i k t t' l Hk HkN E A).
    + (* i leaves l alone *) rewrite Hi. intros k Hk HkN T. apply hb_po; auto.
  - specialize (IH (Nat.lt_le_incl _ _ HjN)). destruct (holder_S j l) as [[t [E ->]]|[[t [E ->]]| ->]].
    + (* j acquires l, which is free: j comes after i, and the rest of its thread after j *)
      rewrite E in Vj. rewrite Vj in IH. intros k Hk HkN T.
      apply (hb_trans i j k); [exact (IH j t (le_n j) HjN E)|apply hb_po; auto; rewrite E; auto].
    + (* j releases l, so its thread holds l: j comes after i, and a later acquire after j *)
      rewrite E in Vj. rewrite Vj in IH. intros k t' Hk HkN A.
      apply (hb_trans i j k); [apply (IH j (le_n j) HjN); rewrite E; reflexivity|exact (hb_sw j k t t' l Hk HkN E A)].
    + (* j leaves l alone *) destruct (holder j l); intros; eapply IH; eauto using Nat.lt_le_incl.
Qed.

Theorem held_ordered i j l : i < j -> j < N ->
  holder i l = Some (thread (tr i)) -> holder j l = Some (thread (tr j)) -> hb i j.
Proof.
  intros Hij HjN Hi Hj. pose proof (lock_carries_order i l Hi j Hij (Nat.lt_le_incl _ _ HjN)) as T.
  rewrite Hj in T. exact (T j (le_n j) HjN eq_refl).
Qed.

Theorem C12_lockset_sound i j t1 t2 x w1 w2 l :
  i < j -> j < N -> tr i = Acc t1 x w1 -> tr j = Acc t2 x w2 -> t1 <> t2 ->
  holder i l = Some t1 -> holder j l = Some t2 -> hb i j.
Proof. intros Hij HjN Ei Ej _ Hi Hj. apply (held_ordered i j l); auto; [rewrite Ei|rewrite Ej]; assumption. Qed.
End Trace.
Print Assumptions C12_lockset_sound.
