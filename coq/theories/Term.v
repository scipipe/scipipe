(* Every action of the network strictly decreases a potential, so every
   execution is finite (C05: Run returns after finitely many steps). *)
From Coq Require Import List Lia PeanoNat.
Import ListNotations.
Require Lib.
Require Import NetA Inv.

Section Term.
Variable c : cfg.
Variable len : nat -> nat.

Definition EE := E c.
(* one unit of cN or eN has to outweigh what the step that counts it up adds elsewhere: LHand takes ct_rank from 1 to
   EE + 3 and adds a false to fl, LEndSend takes rn_rank from 1 to EE + 2; anything above EE + 3 would do *)
Definition K := EE + 5.

(* CtIdle and RSel rank above the round they start, whose order lists at most EE edges (perm_len):
   EE + 3 > length perm + 2 and EE + 2 > length perm + 1 *)
Definition ct_rank (x : ctst) : nat :=
  match x with CtIdle => EE + 3 | CtRecv todo _ => length todo + 2 | CtHand => 1 | CtDone => 0 end.
Definition rn_rank (x : runst) : nat :=
  match x with RSel => EE + 2 | RSend todo => length todo + 1 | RFin => 0 end.
Fixpoint nfalse (l : list bool) : nat := match l with [] => 0 | b :: r => (if b then 0 else 1) + nfalse r end.

Definition phi (v : nat) (n : nst) : nat :=
  (len v - cN n) * K + (len v - eN n) * K + ct_rank (ct n) + rn_rank (rn n) + nfalse (fl n).

Fixpoint sumto (f : nat -> nat) (n : nat) : nat := match n with O => 0 | S k => f k + sumto f k end.

Definition Phi (s : st) : nat := sumto (fun v => phi v (ns s v)) (nn c).

(* a read or send order lists distinct edges of the network: there are at most EE of them *)
Lemma perm_len {f l} : is_perm l (filter f (eids c)) = true -> length l <= EE.
Proof.
  intros H. destruct (Lib.is_perm_in H (NoDup_filter f (seq_NoDup _ _))) as [Hin ND].
  unfold EE, E. rewrite <- (seq_length (length (edges c)) 0). apply NoDup_incl_length; [exact ND|].
  intros x Hx. apply Hin in Hx. exact (incl_filter f _ x Hx).
Qed.

Lemma nfalse_app l1 l2 : nfalse (l1 ++ l2) = nfalse l1 + nfalse l2.
Proof. induction l1 as [|[|] l1 IH]; simpl; auto; lia. Qed.

Lemma nfalse_set l : forall i, nth_error l i = Some false -> nfalse l = S (nfalse (set_nth l i true)).
Proof.
  induction l as [|b l IH]; intros [|i] H; simpl in *; try discriminate.
  - injection H as ->. reflexivity.
  - rewrite (IH i H). destruct b; simpl; lia.
Qed.

Lemma Phi_upd s s' v n' : v < nn c -> ns s' = upd (ns s) v n' -> phi v n' < phi v (ns s v) -> Phi s' < Phi s.
Proof.
  intros Hv Hns Hlt. unfold Phi. rewrite Hns.
  pose proof (Lib.sumto_upd (fun w => phi w (upd (ns s) v n' w)) (fun w => phi w (ns s w)) Hv) as Hu.
  simpl in Hu. rewrite upd_same in Hu. specialize (Hu (fun i Hi => f_equal (phi i) (upd_other (ns s) n' Hi))).
  change Lib.sumto with sumto in Hu. lia.
Qed.

Lemma mul_K_lt a b : a < b -> K + a * K <= b * K.
Proof. intros H. exact (Nat.mul_le_mono_r (S a) b K H). Qed.

(* the decrease is local to the acting node; only the hand-off and the end of a send round need its counting invariant *)
Lemma lstep_phi s a n' q' :
  NodeInv c len s (node_of a) -> lstep c s a n' q' -> phi (node_of a) n' < phi (node_of a) (ns s (node_of a)).
Proof.
  intros NI HL. unfold phi.
  (* eight rules only step down in ct_rank or rn_rank; left are the two that start a round (perm_len bounds its rank),
     the two that count up (LHand, LEndSend) and LExit (nfalse) *)
  destruct HL; simpl in *; try rewrite Ct; try rewrite Rn; try rewrite Fl; simpl; try lia.
  - (* LBeginRound *) pose proof (perm_len Pm). lia.
  - (* LHand *) pose proof (ni_le NI) as Hle. unfold hand in Hle. rewrite Ct in Hle.
    pose proof (mul_K_lt (len v - S (cN (ns s v))) (len v - cN (ns s v))). rewrite nfalse_app. simpl. unfold K in *. lia.
  - (* LExit *) rewrite (nfalse_set _ _ Fl). lia.
  - (* LPop *) pose proof (perm_len Pm). lia.
  - (* LEndSend *) pose proof (ni_total NI) as T. unfold sending in T. rewrite Rn in T. pose proof (ni_le NI).
    pose proof (mul_K_lt (len v - S (eN (ns s v))) (len v - eN (ns s v))). unfold K in *. lia.
Qed.

Theorem step_decreases s a s' :
  Inv c len s -> node_of a < nn c -> step c s a = Some s' -> Phi s' < Phi s.
Proof.
  intros [HN _] Hv Hstep. destruct (step_lstep Hstep) as (n' & q' & HL & Hns & _).
  eapply Phi_upd; [exact Hv|exact Hns|]. eapply lstep_phi; [apply HN, Hv|exact HL].
Qed.

End Term.
Print Assumptions step_decreases.
