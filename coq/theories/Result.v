(* The sequential reference: `result` runs a list of tasks in order over a file store.  The equation its outcome
   satisfies at each task (task_eqn), and from it the convergence lemma behind C03: re-running from any task-atomic
   intermediate file state gives the same result as the uninterrupted run. *)
From Coq Require Import List PeanoNat.
Import ListNotations.

Definition content := nat.
Definition fs := nat -> option content.

Record task := {
  tin  : list nat;                                   (* final locations read *)
  tout : list nat;                                   (* final locations written *)
  sem  : list (option content) -> option (list content)  (* None: the command fails *)
}.

Definition isSome {A} (o : option A) := match o with Some _ => true | None => false end.
Definition any_exists (f : fs) (l : list nat) := existsb (fun o => isSome (f o)) l.

(* stops at the shorter list; [wf]'s third clause (one content per output) is there so that no output is left out *)
Fixpoint write_all (f : fs) (os : list nat) (cs : list content) : fs :=
  match os, cs with
  | o :: os', c :: cs' => write_all (fun x => if Nat.eqb x o then Some c else f x) os' cs'
  | _, _ => f
  end.

Definition run_task (t : task) (f : fs) : option fs :=
  if any_exists f (tout t) then Some f
  else match sem t (map f (tin t)) with
       | None => None
       | Some cs => Some (write_all f (tout t) cs)
       end.

Fixpoint result (ts : list task) (f : fs) : option fs :=
  match ts with
  | [] => Some f
  | t :: r => match run_task t f with None => None | Some f' => result r f' end
  end.

Lemma write_all_out f os cs x : ~ In x os -> write_all f os cs x = f x.
Proof.
  revert f cs; induction os as [|o os IH]; intros f [|c cs] H; simpl; auto.
  rewrite IH by (intros H'; apply H; right; exact H').
  destruct (Nat.eqb_spec x o); auto. subst. exfalso. apply H. left; reflexivity.
Qed.

Lemma run_task_frame {t f f' x} : run_task t f = Some f' -> ~ In x (tout t) -> f' x = f x.
Proof.
  unfold run_task. destruct (any_exists f (tout t)).
  - intros H; inversion H; auto.
  - destruct (sem t (map f (tin t))); [|discriminate]. intros H Hx; inversion H.
    apply write_all_out; auto.
Qed.

Definition agree_on (l : list nat) (f g : fs) := forall x, In x l -> f x = g x.

Lemma any_exists_agree {l f g} : agree_on l f g -> any_exists f l = any_exists g l.
Proof.
  unfold any_exists. induction l as [|a l IH]; intros H; simpl; auto.
  rewrite (H a) by (left; reflexivity). f_equal. apply IH. intros x Hx. apply H. right; exact Hx.
Qed.

Lemma write_all_agree (f g : fs) os cs x :
  (f x = g x) -> write_all f os cs x = write_all g os cs x.
Proof.
  revert f g cs; induction os as [|o os IH]; intros f g [|c cs] H; auto.
  apply IH. destruct (Nat.eqb x o); auto.
Qed.

(* outputs of different tasks are disjoint; a task reads nothing that a later
   task (or itself) writes; sem returns one content per output *)
Fixpoint wf (ts : list task) : Prop :=
  match ts with
  | [] => True
  | t :: r =>
    (forall t', In t' r -> forall x, In x (tout t) -> ~ In x (tout t')) /\
    (forall t', In t' (t :: r) -> forall x, In x (tin t) -> ~ In x (tout t')) /\
    (forall xs cs, sem t xs = Some cs -> length cs = length (tout t)) /\
    wf r
  end.

(* f1 lies task-atomically between f0 and the result fR of running from f0 *)
Definition between (ts : list task) (f0 f1 fR : fs) : Prop :=
  (forall x, (forall t, In t ts -> ~ In x (tout t)) -> f1 x = f0 x) /\
  (forall t, In t ts -> agree_on (tout t) f1 f0 \/ agree_on (tout t) f1 fR).

Lemma write_all_in_some (f : fs) os cs x : In x os -> length cs = length os ->
  exists c, write_all f os cs x = Some c.
Proof.
  revert f cs; induction os as [|o os IH]; intros f [|c cs] Hin Hl; simpl; try contradiction; try discriminate.
  destruct (in_dec Nat.eq_dec x os) as [Hi|Hn]; [apply IH; [exact Hi|now injection Hl]|].
  destruct Hin as [->|Hin]; [|tauto]. exists c. rewrite write_all_out by assumption. now rewrite Nat.eqb_refl.
Qed.

Lemma any_exists_true f l : any_exists f l = true <-> exists x c, In x l /\ f x = Some c.
Proof.
  unfold any_exists. rewrite existsb_exists. split.
  - intros [x [Hx Hs]]. destruct (f x) eqn:E; [|discriminate]. eauto.
  - intros [x [c [Hx Hs]]]. exists x. rewrite Hs. auto.
Qed.

Lemma any_exists_false {f l} : any_exists f l = false <-> forall x, In x l -> f x = None.
Proof.
  split.
  - intros H x Hx. destruct (f x) as [c|] eqn:E; [|reflexivity].
    rewrite (proj2 (any_exists_true f l)) in H by eauto. discriminate.
  - intros H. destruct (any_exists f l) eqn:A; [|reflexivity].
    apply any_exists_true in A. destruct A as [x [c [Hx Hc]]]. rewrite (H x Hx) in Hc. discriminate.
Qed.

Lemma result_frame {ts f fR x} : result ts f = Some fR ->
  (forall t, In t ts -> ~ In x (tout t)) -> fR x = f x.
Proof.
  revert f. induction ts as [|t r IH]; intros f H Hx; simpl in H.
  - inversion H; auto.
  - destruct (run_task t f) as [f'|] eqn:E; [|discriminate].
    rewrite (IH f' H) by (intros t' Ht'; apply Hx; right; exact Ht').
    eapply run_task_frame; eauto. apply Hx. left; reflexivity.
Qed.

(* The equation the reference result satisfies at each task: the task saw its outputs as they were initially and its
   inputs as they are finally (nothing later writes them), so its outputs are either the initial ones (skipped) or what
   its command makes of the final inputs. *)
Definition task_eqn (t : task) (f0 fR : fs) : Prop :=
  if any_exists f0 (tout t) then agree_on (tout t) fR f0
  else exists cs, sem t (map fR (tin t)) = Some cs /\ agree_on (tout t) fR (write_all f0 (tout t) cs).

Lemma task_eqn_agree {t f f' fR} : task_eqn t f fR -> agree_on (tout t) f' f -> task_eqn t f' fR.
Proof.
  intros Q Ho. unfold task_eqn in *. rewrite (any_exists_agree Ho). destruct (any_exists f (tout t)).
  - intros x Hx. rewrite Q, Ho; auto.
  - destruct Q as [cs [S A]]. exists cs. split; [exact S|]. intros x Hx. rewrite (A x Hx). apply write_all_agree. symmetry. apply Ho, Hx.
Qed.

(* at the task that runs first the equation says what [run_task] does: its inputs are final already *)
Lemma run_task_eqn t f0 fR : agree_on (tin t) fR f0 ->
  (task_eqn t f0 fR <-> exists f', run_task t f0 = Some f' /\ agree_on (tout t) fR f').
Proof.
  intros Hi. unfold task_eqn, run_task. rewrite (map_ext_in _ _ _ Hi). destruct (any_exists f0 (tout t)).
  - split; [eauto|]. intros [f' [[= <-] A]]. exact A.
  - destruct (sem t (map f0 (tin t))) as [cs|]; split.
    + intros [cs' [[= <-] A]]. eauto.
    + intros [f' [[= <-] A]]. eauto.
    + intros [cs' [S _]]. discriminate S.
    + intros [f' [E _]]. discriminate E.
Qed.

Lemma result_eqns ts : wf ts -> forall f0 fR, result ts f0 = Some fR -> forall t, In t ts -> task_eqn t f0 fR.
Proof.
  induction ts as [|t r IH]; intros W f0 fR H t' Ht'; [destruct Ht'|]. destruct W as [Hdis [Hin [_ W]]].
  simpl in H. destruct (run_task t f0) as [f'|] eqn:E; [|discriminate].
  destruct Ht' as [<-|Ht'].
  - (* the head: the rest of the run touches neither its outputs nor its inputs *)
    apply run_task_eqn.
    + intros x Hx. rewrite (result_frame H) by (intros t' Ht'; apply (Hin t' (or_intror Ht') x Hx)).
      apply (run_task_frame E), (Hin t (or_introl eq_refl) x Hx).
    + exists f'. split; [exact E|]. intros x Hx. apply (result_frame H). intros t' Ht' Hx'. exact (Hdis t' Ht' x Hx Hx').
  - (* a later task: the head left its outputs as they were *)
    apply (task_eqn_agree (IH W f' fR H t' Ht')).
    intros x Hx. symmetry. apply (run_task_frame E). intros Hx'. exact (Hdis t' Ht' x Hx' Hx).
Qed.

Lemma eqns_result ts : wf ts -> forall f0 fR,
  (forall x, (forall t, In t ts -> ~ In x (tout t)) -> fR x = f0 x) ->
  (forall t, In t ts -> task_eqn t f0 fR) ->
  exists fR', result ts f0 = Some fR' /\ forall x, fR' x = fR x.
Proof.
  induction ts as [|t r IH]; intros W f0 fR FR EQ.
  - exists f0. split; [reflexivity|]. intros x. symmetry. apply FR. intros t [].
  - destruct W as [Hdis [Hin [_ W]]]. simpl.
    assert (Hinp : agree_on (tin t) fR f0) by (intros x Hx; apply FR; intros t' Ht'; exact (Hin t' Ht' x Hx)).
    destruct (proj1 (run_task_eqn t f0 fR Hinp) (EQ t (or_introl eq_refl))) as [f' [E Ho]].
    rewrite E. apply (IH W f' fR).
    + intros x Hx. destruct (in_dec Nat.eq_dec x (tout t)) as [Hi|Hn]; [apply Ho, Hi|].
      rewrite (run_task_frame E Hn). apply FR. intros t' [<-|Ht']; auto.
    + intros t' Ht'. apply (task_eqn_agree (EQ t' (or_intror Ht'))).
      intros x Hx. apply (run_task_frame E). intros Hx'. exact (Hdis t' Ht' x Hx' Hx).
Qed.

Lemma wf_len ts : wf ts -> forall t, In t ts -> forall xs cs, sem t xs = Some cs -> length cs = length (tout t).
Proof.
  induction ts as [|h r IH]; intros W t Ht; [destruct Ht|]. destruct W as [_ [_ [L W]]].
  destruct Ht as [<-|Ht]; [exact L|exact (IH W t Ht)].
Qed.

Lemma converge ts : wf ts -> forall g0 g1 fR,
  result ts g0 = Some fR -> between ts g0 g1 fR ->
  exists fR', result ts g1 = Some fR' /\ forall x, fR' x = fR x.
Proof.
  intros W g0 g1 fR H [Hout Hat]. apply (eqns_result ts W g1 fR).
  - intros x Hx. rewrite (Hout x Hx). exact (result_frame H Hx).
  - intros t Ht. pose proof (result_eqns ts W g0 fR H t Ht) as Q.
    destruct (Hat t Ht) as [A|A]; [exact (task_eqn_agree Q A)|].
    (* the outputs of t are final already: the re-run skips t, unless none of them exists; but then fR has none of t's
       outputs, yet the command wrote one content per output (wf): t has no outputs *)
    unfold task_eqn in *. destruct (any_exists g1 (tout t)) eqn:A1; [intros x Hx; symmetry; apply A, Hx|].
    rewrite (any_exists_agree A) in A1.
    destruct (any_exists g0 (tout t)) eqn:A0.
    + rewrite <- (any_exists_agree Q), A1 in A0. discriminate.
    + destruct Q as [cs [S Q]]. exists cs. split; [exact S|]. intros x Hx. exfalso.
      destruct (write_all_in_some g0 (tout t) cs x Hx (wf_len ts W t Ht _ _ S)) as [v Hv]. rewrite <- (Q x Hx), (proj1 any_exists_false A1 x Hx) in Hv. discriminate Hv.
Qed.

(* [converge] under the property's name *)
Theorem C03_converges ts f0 f1 fR :
  wf ts -> result ts f0 = Some fR -> between ts f0 f1 fR ->
  exists fR', result ts f1 = Some fR' /\ forall x, fR' x = fR x.
Proof. intros. eapply converge; eauto. Qed.
Print Assumptions C03_converges.

(* the second clause of [between] (the outputs of a task are all initial or all final) is necessary: a two-output task
   finalised half-way does not converge *)
Definition t2 : task := {| tin := []; tout := [0; 1]; sem := fun _ => Some [7; 8] |}.
Definition f_empty : fs := fun _ => None.
Definition f_half : fs := fun x => if Nat.eqb x 0 then Some 7 else None.
Example C03_midfinalize_refuted :
  exists fR fR', result [t2] f_empty = Some fR /\ result [t2] f_half = Some fR' /\ fR 1 = Some 8 /\ fR' 1 = None.
Proof. eexists; eexists; repeat split. Qed.
