(* C04 -- Every input set is processed exactly once; every item reaches every consumer.
   Model: NetA (createTasks / Run / task threads per process, bounded FIFO edges) with the history variables of Ghost.
   Quantifiers: every merge-free balanced acyclic configuration `c` (any number of nodes, edges, stream lengths,
   capacity >= 1), every schedule `sched` (= every interleaving), every reachable state. *)
From Coq Require Import List Bool.
Import ListNotations.
From SP Require Import Skel Gen Expected ExpectedCones NetA Inv Top Ghost NetTop.
From SP Require TagShare.
From SP Require Port.
From SP Require WfModel AuditModel.
From SP Require Result TaskFS TInv Glue Cor TaskTop.

(* T1: createTasks receives once on every in-port and parameter port per round and stops after the first round that finds one
   closed; Run selects between a new task and the Done of the oldest started one and closes the out-ports on return; an out-port
   sends to and closes every remote; an in-port closes its channel with its last remote; the sink reads both its ports at once *)
Theorem C04_code_conforms :
  skel_eqb skel_Process_Run exp_Process_Run
  && skel_eqb skel_Process_createTasks exp_Process_createTasks
  && skel_eqb skel_BaseProcess_receiveOnInPorts exp_BaseProcess_receiveOnInPorts
  && skel_eqb skel_BaseProcess_receiveOnInParamPorts exp_BaseProcess_receiveOnInParamPorts
  && skel_eqb skel_taskQueue_NextTaskDone exp_taskQueue_NextTaskDone
  && skel_eqb skel_InPort_Send exp_InPort_Send
  && skel_eqb skel_InPort_CloseConnection exp_InPort_CloseConnection
  && skel_eqb skel_InParamPort_Send exp_InParamPort_Send
  && skel_eqb skel_InParamPort_CloseConnection exp_InParamPort_CloseConnection
  && skel_eqb skel_OutPort_Send exp_OutPort_Send
  && skel_eqb skel_OutPort_Close exp_OutPort_Close
  && skel_eqb skel_OutParamPort_Send exp_OutParamPort_Send
  && skel_eqb skel_OutParamPort_Close exp_OutParamPort_Close
  && skel_eqb skel_BaseProcess_CloseOutPorts exp_BaseProcess_CloseOutPorts
  && skel_eqb skel_InParamPort_FromStr exp_InParamPort_FromStr
  && skel_eqb skel_Sink_Run exp_Sink_Run = true.
Proof. vm_compute. reflexivity. Qed.

(* the k-th task a process created is made of the k-th item of every in-edge history (for a source: its k-th item):
   tasks are exactly the zip of the incoming streams -- none lost, none duplicated, none mispaired *)
Theorem C04_tasks_are_zip : forall (c : cfg) (len : nat -> nat) (gc : gcfg),
  wf c len -> (forall v L, slen c v = Some L -> length (sitems gc v) = L) ->
  forall sched s g, sched_ok c sched -> grun c gc (init c) ginit sched = Some (s, g) ->
  forall v k, v < nn c -> k < cN (ns s v) ->
  nth k (crt g v) [] = tuple_of c gc g v k /\ length (crt g v) = cN (ns s v).
Proof.
  intros c len gc WF SL sched s g Hok Hrun v k Hv Hk.
  destruct (reachable_inv WF Hok Hrun) as [_ [_ G]].
  split; [exact (Ghost.C04_tasks_are_zip c gc s g G v k Hv Hk) | exact (g_crtn c gc s g G v Hv)].
Qed.

(* everything sent on an edge so far is, in order, the outputs of the first tasks its source created: each exactly once *)
Theorem C04_emitted_exactly_once : forall (c : cfg) (len : nat -> nat) (gc : gcfg),
  wf c len -> (forall v L, slen c v = Some L -> length (sitems gc v) = L) ->
  forall sched s g, sched_ok c sched -> grun c gc (init c) ginit sched = Some (s, g) ->
  forall e, e < E c ->
  hist g e = map (outf gc (esrc c e) e) (firstn (snt (es s e)) (crt g (esrc c e))) /\ length (hist g e) = snt (es s e).
Proof.
  intros c len gc WF SL sched s g Hok Hrun e He.
  destruct (reachable_inv WF Hok Hrun) as [_ [_ G]].
  split; [exact (Ghost.C08_order c gc s g G e He) | exact (g_len c gc s g G e He)].
Qed.

(* when every process has finished, every process has created and emitted a task for every input set,
   and on every edge everything that was sent has been received *)
Theorem C04_complete : forall (c : cfg) (len : nat -> nat) (gc : gcfg),
  wf c len -> (forall v L, slen c v = Some L -> length (sitems gc v) = L) ->
  forall sched s g, sched_ok c sched -> grun c gc (init c) ginit sched = Some (s, g) -> final c s ->
  (forall v, v < nn c -> cN (ns s v) = len v /\ eN (ns s v) = len v /\ fl (ns s v) = []) /\
  (forall e, e < E c -> snt (es s e) = len (esrc c e) /\ rcv (es s e) = snt (es s e)).
Proof.
  intros c len gc WF SL sched s g Hok Hrun HF.
  destruct (reachable_inv WF Hok Hrun) as [I _].
  exact (final_complete c len WF s I HF).
Qed.

(* the tasks of a completed run do not depend on the schedule *)
Theorem C04_deterministic : forall (c : cfg) (len : nat -> nat) (gc : gcfg),
  wf c len -> (forall v L, slen c v = Some L -> length (sitems gc v) = L) ->
  forall sched1 s1 g1 sched2 s2 g2,
  sched_ok c sched1 -> grun c gc (init c) ginit sched1 = Some (s1, g1) -> final c s1 ->
  sched_ok c sched2 -> grun c gc (init c) ginit sched2 = Some (s2, g2) -> final c s2 ->
  forall v, v < nn c -> crt g1 v = crt g2 v.
Proof.
  intros c len gc WF SL sched1 s1 g1 sched2 s2 g2 O1 R1 F1 O2 R2 F2.
  exact (final_tasks_deterministic c len gc WF s1 g1 s2 g2
           (reachable_run WF O1 R1) F1 (reachable_run WF O2 R2) F2).
Qed.

(* the zip equation: in a completed run the k-th task of a process consists of the outputs of the k-th tasks of its
   producers (for a source: its k-th item) ... *)
Theorem C04_zip_equation : forall (c : cfg) (len : nat -> nat) (gc : gcfg),
  wf c len -> (forall v L, slen c v = Some L -> length (sitems gc v) = L) ->
  forall sched s g, sched_ok c sched -> grun c gc (init c) ginit sched = Some (s, g) -> final c s ->
  forall v k, v < nn c -> k < len v ->
  nth k (crt g v) [] =
  match slen c v with
  | Some _ => [nth k (sitems gc v) 0]
  | None => map (fun y => nth k (map (outf gc (esrc c y) y) (crt g (esrc c y))) 0) (ins c v)
  end.
Proof.
  intros c len gc WF SL sched s g Hok Hrun HF v k Hv Hk.
  exact (final_zip_equation c len gc WF s g v k (reachable_inv WF Hok Hrun) HF Hv Hk).
Qed.

(* ... which is the recursion the sequential reference evaluator used by the correspondence check computes: its round k
   takes the k-th item of every in-column *)
Theorem C04_reference_evaluator_zips : forall (A : Type) (d : A) (n : nat) (cols : list (list A)) (k : nat), k < n ->
  nth k (WfModel.transpose_n d n cols) [] = map (fun col => nth k col d) cols.
Proof. exact @AuditModel.transpose_nth. Qed.

(* fan-in of several upstreams into one port (Port.v: InPort.Send from every remote, the shared bounded channel,
   CloseConnection, the receiver): for every number of upstreams, all stream lengths, every buffer size >= 1 and every
   schedule -- what the receiver holds from each upstream is, in that upstream's order, a prefix of what it sends, nothing
   else is received, at most cap items wait ... *)
Theorem C04_port_merge : forall (c : Port.cfg), 1 <= Port.cap c -> 1 <= Port.ns c ->
  forall l s, Port.run c (Port.init c) l = Some s ->
  (forall r, r < Port.ns c -> Port.from r (Port.hist s) = firstn (Port.rcv s r) (Port.plan c r)) /\
  (forall r, Port.ns c <= r -> Port.from r (Port.hist s) = []) /\ (Port.queued c s <= Port.cap c).
Proof. exact Port.merge_is_orderly. Qed.

(* ... the port closes exactly when its last upstream closed, and an upstream closes only after its last send ... *)
Theorem C04_port_closes_with_last : forall (c : Port.cfg), 1 <= Port.cap c -> 1 <= Port.ns c ->
  forall l s, Port.run c (Port.init c) l = Some s ->
  (Port.closed s = true <-> forall r, r < Port.ns c -> Port.opn s r = false) /\
  (forall r, r < Port.ns c -> Port.opn s r = false -> Port.sent s r = List.length (Port.plan c r)).
Proof. exact Port.closes_with_last. Qed.

(* ... once the receiver has seen the port closed it holds from every upstream exactly what that upstream sent: every item
   exactly once -- none lost, none duplicated ... *)
Theorem C04_port_complete : forall (c : Port.cfg), 1 <= Port.cap c -> 1 <= Port.ns c ->
  forall l s, Port.run c (Port.init c) l = Some s -> Port.seen s = true ->
  forall r, r < Port.ns c -> Port.from r (Port.hist s) = Port.plan c r.
Proof. exact Port.complete_when_seen. Qed.

(* ... and until then some step is always possible (streams longer than the buffer do not block the merge) *)
Theorem C04_port_progress : forall (c : Port.cfg), 1 <= Port.cap c -> 1 <= Port.ns c ->
  forall l s, Port.run c (Port.init c) l = Some s -> Port.seen s = false -> exists a, Port.step c s a <> None.
Proof. exact Port.port_progress. Qed.

(* non-vacuity: the diamond 0 -> {1,2} -> 3 with a 2-item source and capacity 1 is a well-formed configuration *)
Theorem C04_nonvacuous : wf dia (fun _ => 2).
Proof. exact dia_wf. Qed.

(* "Consequently the set of files a workflow produces and their contents are a function of the workflow graph and its
   inputs alone, not of timing": the tasks are (C04_deterministic); and for the files, in the task / file-store machine
   (TaskFS: every task DAG, every initial store, with or without left-over temp dirs): two runs, under any two schedules,
   that get all their tasks done hold the same content at every declared output -- both hold the sequential reference's *)
Theorem C04_files_deterministic : forall (c : TaskFS.cfg) (f0 : Result.fs) (left1 left2 : nat -> bool), TInv.wfc c ->
  forall fR, Glue.pre c f0 (TaskFS.nt c) = Some fR ->
  forall s1 s2, Cor.reachable c f0 left1 s1 -> Cor.reachable c f0 left2 s2 ->
  (forall t, t < TaskFS.nt c -> TaskFS.is_done (TaskFS.pcs s1 t) = true) ->
  (forall t, t < TaskFS.nt c -> TaskFS.is_done (TaskFS.pcs s2 t) = true) ->
  forall t x, t < TaskFS.nt c -> In x (Result.tout (TaskFS.tk c t)) -> TaskFS.fin s1 x = TaskFS.fin s2 x.
Proof.
  intros c f0 l1 l2 W fR P s1 s2 R1 R2 D1 D2 t x Ht Hx.
  rewrite (TaskTop.complete_is_result c f0 l1 W fR P s1 R1 D1 t x Ht Hx).
  rewrite (TaskTop.complete_is_result c f0 l2 W fR P s2 R2 D2 t x Ht Hx). reflexivity.
Qed.

(* T1, call cones (DESIGN 11.26, ExpectedCones.v): every function of scipipe reachable from the functions above is one the
   models were compared with. *)
Theorem C04_cone_conforms :
  strs_eqb cone_Process_Run exp_cone_Process_Run
  && strs_eqb cone_Process_createTasks exp_cone_Process_createTasks
  && strs_eqb cone_BaseProcess_receiveOnInPorts exp_cone_BaseProcess_receiveOnInPorts
  && strs_eqb cone_BaseProcess_receiveOnInParamPorts exp_cone_BaseProcess_receiveOnInParamPorts
  && strs_eqb cone_taskQueue_NextTaskDone exp_cone_taskQueue_NextTaskDone
  && strs_eqb cone_InPort_Send exp_cone_InPort_Send
  && strs_eqb cone_InPort_CloseConnection exp_cone_InPort_CloseConnection
  && strs_eqb cone_InParamPort_Send exp_cone_InParamPort_Send
  && strs_eqb cone_InParamPort_CloseConnection exp_cone_InParamPort_CloseConnection
  && strs_eqb cone_OutPort_Send exp_cone_OutPort_Send
  && strs_eqb cone_OutPort_Close exp_cone_OutPort_Close
  && strs_eqb cone_OutParamPort_Send exp_cone_OutParamPort_Send
  && strs_eqb cone_OutParamPort_Close exp_cone_OutParamPort_Close
  && strs_eqb cone_BaseProcess_CloseOutPorts exp_cone_BaseProcess_CloseOutPorts
  && strs_eqb cone_InParamPort_FromStr exp_cone_InParamPort_FromStr
  && strs_eqb cone_Sink_Run exp_cone_Sink_Run = true.
Proof. vm_compute. reflexivity. Qed.

(* one IP object handed to two consumers of an out-port, one of them a tagging component (finding D24, recorded).
   TagShare: OutPort.Send gives every connected in-port the same *FileIP; MapToTags adds its tags to the object it received; a
   process reads the tags once, when it forms its task, and its default output name contains them.  What the sibling reads is
   the IP's own tags plus some prefix of the tagger's -- which prefix is up to the schedule ... *)
Theorem C04_shared_ip_views : forall (tag : Type) (init_tags new_tags : list tag) (shared : bool) l s,
  TagShare.run tag init_tags new_tags shared (TagShare.init tag) l = Some s ->
  forall v, TagShare.view tag s = Some v ->
  exists j, j <= List.length new_tags /\ v = (if shared then (init_tags ++ firstn j new_tags)%list else init_tags).
Proof. intros tag i n sh l s. exact (TagShare.view_is_some_prefix tag i n sh l s). Qed.

(* ... so the last sentence of C04 fails for this wiring as soon as the tagger has a tag to add: two complete runs of the same
   workflow on the same inputs in which the sibling saw different tags (and named its output differently) *)
Theorem C04_shared_ip_timing_dependent_refuted : forall (tag : Type) (init_tags new_tags : list tag), new_tags <> [] ->
  exists l1 s1 l2 s2 v1 v2,
    TagShare.run tag init_tags new_tags true (TagShare.init tag) l1 = Some s1 /\ TagShare.complete tag new_tags s1 /\ TagShare.view tag s1 = Some v1 /\
    TagShare.run tag init_tags new_tags true (TagShare.init tag) l2 = Some s2 /\ TagShare.complete tag new_tags s2 /\ TagShare.view tag s2 = Some v2 /\
    v1 <> v2.
Proof. exact TagShare.shared_object_timing_dependent. Qed.

(* a tagger that worked on a copy of its own would leave the sibling's view a function of the input alone *)
Theorem C04_private_copy_deterministic : forall (tag : Type) (init_tags new_tags : list tag) l s,
  TagShare.run tag init_tags new_tags false (TagShare.init tag) l = Some s ->
  forall v, TagShare.view tag s = Some v -> v = init_tags.
Proof. exact TagShare.private_copy_deterministic. Qed.

(* the witness of finding D24: a tagger with one tag to add (7); in one run the sibling reads no tag, in another that tag *)
Theorem C04_shared_ip_nonvacuous :
  exists l1 s1 l2 s2, TagShare.run nat [] [7] true (TagShare.init nat) l1 = Some s1 /\ TagShare.view nat s1 = Some [] /\
                      TagShare.run nat [] [7] true (TagShare.init nat) l2 = Some s2 /\ TagShare.view nat s2 = Some [7].
Proof. exact TagShare.d24. Qed.

Print Assumptions C04_code_conforms.
Print Assumptions C04_tasks_are_zip.
Print Assumptions C04_emitted_exactly_once.
Print Assumptions C04_complete.
Print Assumptions C04_deterministic.
Print Assumptions C04_files_deterministic.
Print Assumptions C04_zip_equation.
Print Assumptions C04_reference_evaluator_zips.
Print Assumptions C04_port_merge.
Print Assumptions C04_port_closes_with_last.
Print Assumptions C04_port_complete.
Print Assumptions C04_port_progress.
Print Assumptions C04_nonvacuous.
Print Assumptions C04_cone_conforms.
Print Assumptions C04_shared_ip_views.
Print Assumptions C04_shared_ip_timing_dependent_refuted.
Print Assumptions C04_private_copy_deterministic.
Print Assumptions C04_shared_ip_nonvacuous.
