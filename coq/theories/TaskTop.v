(* Whole-execution statements for the task / file-store machine (TaskFS): every schedule, every crash point. *)
From Coq Require Import List.
From SP Require Import Result TaskFS TInv Glue Cor.

Section TaskTop.
Variable c : cfg.
Variable f0 : fs.
Variable left0 : nat -> bool.
Hypothesis WF : wfc c.

Variable fR : fs.
Hypothesis HR : pre c f0 (nt c) = Some fR.

(* a completed run, under any schedule, has produced exactly the sequential reference result at every declared output *)
Theorem complete_is_result s : reachable c f0 left0 s ->
  (forall t, t < nt c -> is_done (pcs s t) = true) ->
  forall t x, t < nt c -> In x (tout (tk c t)) -> fin s x = fR x.
Proof.
  intros R HD t x Ht Hx. pose proof (reach_inv WF R) as HI.
  destruct (committed_is_ref c f0 WF fR HR s HI t Ht) as [Hc Hs].
  pose proof (uncommitted_untouched c f0 left0 WF R Ht Hx) as Hun.
  specialize (HD t Ht). destruct (pcs s t); try discriminate.
  - (* DoneRan *) apply Hc; auto. exact I.
  - (* DoneSkip *) rewrite (Hs eq_refl x Hx). apply Hun. tauto.
Qed.

(* restart after a crash: from the files of any crash state in which no task was cut between its renames, the re-run
   (temp dirs removed) completes with the files of the uninterrupted run.  The re-run here is the sequential reference
   `result`; that every concurrent execution of it ends with the same files is History.any_history_run_completes *)
Theorem crash_restart_converges s : reachable c f0 left0 s -> finalize_atomic c s ->
  exists fR', result (tl c (nt c)) (fin s) = Some fR' /\ forall x, fR' x = fR x.
Proof.
  intros R FA. destruct (crash_between c f0 left0 WF fR HR s R FA) as [Hout Hbt].
  apply (C03_converges (tl c (nt c)) f0 (fin s) fR (wfc_wf c WF) HR).
  split.
  - intros x Hx. apply Hout. intros t Ht Hin. apply (Hx (tk c t)); auto. apply in_tl. exists t. split; auto.
  - intros t Ht. apply in_tl in Ht. destruct Ht as [i [Hi ->]]. apply Hbt; auto.
Qed.

End TaskTop.
