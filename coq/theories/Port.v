(* One in-port fed by several out-ports (fan-in): InPort.Send from each remote, the shared bounded channel,
   InPort.CloseConnection (delete the remote, close the channel when none is left), and the receiver.
   C04: every item any upstream sends is delivered exactly once, nothing is sent after the port closed, the port closes
   exactly when its last upstream closed.  C08: items of one upstream keep their order through the merge.

   The channel is modelled by what the properties speak about: per sender, how many of its items have been sent and how
   many of those the receiver has taken.  The receiver may take the oldest queued item of ANY sender: that contains every
   behaviour of Go's FIFO channel (which additionally fixes the order between senders), so the theorems hold of the real
   channel.  The senders 0 .. ns-1 are distinct remotes: RemotePorts is keyed by process name + "." + port name, and
   InPort.AddRemotePort fails on a key that is already there (port.go:56-58), so no remote is counted twice.  Capacity 0
   (SCIPIPE_BUFSIZE=0, an unbuffered channel, which getBufsize accepts: settings.go:12-22) is outside the model (CAP). *)
From Coq Require Import List Lia Bool PeanoNat.
From SP Require Lib.
Import ListNotations.

(* simpl leaves differences as written: the induction in init_inv speaks of 0 - 0, which simpl would reduce in the goal and
   not in the hypothesis *)
Local Arguments Nat.sub : simpl never.

Definition item := nat.

Record cfg := { ns : nat;                       (* number of remote out-ports (senders 0 .. ns-1) *)
                plan : nat -> list item;        (* what each sender will send, in order *)
                cap : nat }.

Record st := {
  sent : nat -> nat;        (* items sender r has put into the channel *)
  rcv  : nat -> nat;        (* ... of which the receiver has taken this many *)
  opn  : nat -> bool;       (* the remote is still in RemotePorts *)
  closed : bool;            (* close(pt.Chan) has happened *)
  seen : bool;              (* the receiver has seen the closed, empty channel *)
  hist : list (nat * item)  (* everything received, in order, tagged with its sender *)
}.

Definition upd {A} (f : nat -> A) (i : nat) (a : A) : nat -> A := fun j => if Nat.eqb j i then a else f j.

Definition init (c : cfg) : st :=
  {| sent := fun _ => 0; rcv := fun _ => 0; opn := fun r => Nat.ltb r (ns c); closed := false; seen := false; hist := [] |}.

(* a copy of Lib.sumto, convertible with it: Lib's lemmas about sumto apply to it as they stand (queued_send) *)
Fixpoint sumto (f : nat -> nat) (n : nat) : nat := match n with O => 0 | S k => f k + sumto f k end.

Definition queued (c : cfg) (s : st) : nat := sumto (fun r => sent s r - rcv s r) (ns c).

Definition all_closed (c : cfg) (o : nat -> bool) : bool := forallb (fun r => negb (o r)) (seq 0 (ns c)).

Inductive act :=
| PSend (r : nat)         (* remote r: InPort.Send of its next item *)
| PClose (r : nat)        (* remote r: CloseConnection, after its last send *)
| PRecv (r : nat)         (* the receiver takes the oldest queued item of sender r *)
| PSeeClosed.             (* the receiver finds the channel closed and empty *)

Definition step (c : cfg) (s : st) (a : act) : option st :=
  match a with
  | PSend r =>
    if Nat.ltb r (ns c) && opn s r && Nat.ltb (sent s r) (length (plan c r)) && Nat.ltb (queued c s) (cap c)
    then Some {| sent := upd (sent s) r (S (sent s r)); rcv := rcv s; opn := opn s; closed := closed s; seen := seen s; hist := hist s |}
    else None
  | PClose r =>
    if Nat.ltb r (ns c) && opn s r && Nat.eqb (sent s r) (length (plan c r))
    then let o := upd (opn s) r false in
         Some {| sent := sent s; rcv := rcv s; opn := o; closed := all_closed c o; seen := seen s; hist := hist s |}
    else None
  | PRecv r =>
    if Nat.ltb r (ns c) && Nat.ltb (rcv s r) (sent s r) && negb (seen s)
    then Some {| sent := sent s; rcv := upd (rcv s) r (S (rcv s r)); opn := opn s; closed := closed s; seen := seen s;
                 hist := hist s ++ [(r, nth (rcv s r) (plan c r) 0)] |}
    else None
  | PSeeClosed =>
    if closed s && Nat.eqb (queued c s) 0 && negb (seen s)
    then Some {| sent := sent s; rcv := rcv s; opn := opn s; closed := closed s; seen := true; hist := hist s |}
    else None
  end.

Fixpoint run (c : cfg) (s : st) (l : list act) : option st :=
  match l with
  | [] => Some s
  | a :: r => match step c s a with Some s' => run c s' r | None => None end
  end.

Definition from (r : nat) (h : list (nat * item)) : list item :=
  map snd (filter (fun x => Nat.eqb (fst x) r) h).

Lemma exists_open (o : nat -> bool) n : forallb (fun r => negb (o r)) (seq 0 n) = false -> exists r, r < n /\ o r = true.
Proof.
  induction n as [|n IH]; [discriminate|]. rewrite seq_S, forallb_app, andb_false_iff. simpl. intros [H|H].
  - (* below n *) destruct (IH H) as [r [Hr Ho]]. exists r. split; [lia|exact Ho].
  - (* n itself *) exists n. split; [lia|]. destruct (o n); [reflexivity|discriminate].
Qed.

Lemma exists_queued (f g : nat -> nat) n : sumto (fun r => f r - g r) n <> 0 -> exists r, r < n /\ g r < f r.
Proof.
  induction n as [|n IH]; simpl; intros H; [lia|].
  destruct (Nat.eq_dec (f n - g n) 0) as [E|E].
  - (* below n *) destruct IH as [r [Hr Hl]]; [lia|]. exists r. split; [lia|exact Hl].
  - (* n itself *) exists n. lia.
Qed.

Lemma upd_same A (f : nat -> A) i a : upd f i a i = a.
Proof. unfold upd. now rewrite Nat.eqb_refl. Qed.
Lemma upd_other A (f : nat -> A) i a j : j <> i -> upd f i a j = f j.
Proof. unfold upd. intros H. destruct (Nat.eqb_spec j i); congruence. Qed.

Lemma sumto_ext f g n : (forall r, r < n -> f r = g r) -> sumto f n = sumto g n.
Proof. exact (Lib.sumto_ext f g n). Qed.

Lemma sumto_upd f n r v : r < n -> sumto (upd f r v) n + f r = sumto f n + v.
Proof.
  intros H. pose proof (Lib.sumto_upd _ f H (upd_other _ f r v)) as Q. now rewrite upd_same in Q.
Qed.

Lemma sumto_zero f n : sumto f n = 0 -> forall r, r < n -> f r = 0.
Proof. induction n as [|n IH]; simpl; intros H r Hr; [lia|]. destruct (Nat.eq_dec r n) as [->|]; [lia|]. apply IH; lia. Qed.

Lemma from_app r h1 h2 : from r (h1 ++ h2) = from r h1 ++ from r h2.
Proof. unfold from. now rewrite filter_app, map_app. Qed.

Lemma from_snoc r h r' v : from r (h ++ [(r', v)]) = if Nat.eqb r' r then from r h ++ [v] else from r h.
Proof. rewrite from_app. unfold from. simpl. destruct (Nat.eqb r' r); simpl; auto using app_nil_r. Qed.

Lemma firstn_S_nth (l : list item) k : k < length l -> firstn (S k) l = firstn k l ++ [nth k l 0].
Proof.
  revert k; induction l as [|a l IH]; intros k H; simpl in H; [lia|].
  destruct k; simpl; auto. f_equal. apply IH. lia.
Qed.

Section Proofs.
Variable c : cfg.
Hypothesis CAP : 1 <= cap c.
Hypothesis NS : 1 <= ns c.                 (* a connected port: at least one remote *)

Record Inv (s : st) : Prop := {
  i_le   : forall r, r < ns c -> rcv s r <= sent s r /\ sent s r <= length (plan c r);
  i_zero : forall r, ns c <= r -> sent s r = 0 /\ rcv s r = 0 /\ opn s r = false;
  i_cap  : queued c s <= cap c;
  i_hist : forall r, r < ns c -> from r (hist s) = firstn (rcv s r) (plan c r);          (* C08: per-sender order, C04: exactly once *)
  i_only : forall r, ns c <= r -> from r (hist s) = [];
  i_done : forall r, r < ns c -> opn s r = false -> sent s r = length (plan c r);        (* a remote closes after its last send *)
  i_clo  : closed s = true <-> (forall r, r < ns c -> opn s r = false);                  (* closes exactly when the last upstream closed *)
  i_seen : seen s = true -> closed s = true /\ queued c s = 0
}.

Definition enabled (s : st) (a : act) : Prop :=
  match a with
  | PSend r => r < ns c /\ opn s r = true /\ sent s r < length (plan c r) /\ queued c s < cap c
  | PClose r => r < ns c /\ opn s r = true /\ sent s r = length (plan c r)
  | PRecv r => r < ns c /\ rcv s r < sent s r /\ seen s = false
  | PSeeClosed => closed s = true /\ queued c s = 0 /\ seen s = false
  end.

Lemma step_enabled s a : step c s a <> None <-> enabled s a.
Proof.
  destruct a; apply Lib.guarded; rewrite <- ?andb_assoc; repeat apply Lib.andb_iff.
  all: first [apply Nat.ltb_lt|apply Nat.eqb_eq|apply negb_true_iff|reflexivity].
Qed.

Lemma all_closed_spec o : all_closed c o = true <-> (forall r, r < ns c -> o r = false).
Proof.
  unfold all_closed. rewrite forallb_forall. split.
  - intros H r Hr. apply negb_true_iff, H, in_seq. lia.
  - intros H r Hr. apply in_seq in Hr. apply negb_true_iff, H. lia.
Qed.

Lemma init_inv : Inv (init c).
Proof.
  constructor; simpl; auto; try (intros; lia).
  - (* i_zero *) intros r Hr. repeat split. apply Nat.ltb_ge. lia.
  - (* i_cap *) unfold queued. assert (Z : forall n, sumto (fun _ : nat => 0 - 0) n = 0) by (induction n; simpl; lia). rewrite Z. lia.
  - (* i_done *) intros r Hr Ho. apply Nat.ltb_lt in Hr. congruence.
  - (* i_clo: remote 0 is open *) split; [discriminate|]. intros H. specialize (H 0 NS). apply Nat.ltb_ge in H. lia.
Qed.

Lemma queued_send s r : r < ns c ->
  sumto (fun x => upd (sent s) r (S (sent s r)) x - rcv s x) (ns c) + (sent s r - rcv s r) = queued c s + (S (sent s r) - rcv s r).
Proof.
  intros Hr. rewrite (Lib.sumto_upd _ (fun x => sent s x - rcv s x) Hr).
  - now rewrite upd_same.
  - intros x Hx. now rewrite upd_other.
Qed.

Lemma queued_recv s r : r < ns c ->
  sumto (fun x => sent s x - upd (rcv s) r (S (rcv s r)) x) (ns c) + (sent s r - rcv s r) = queued c s + (sent s r - S (rcv s r)).
Proof.
  intros Hr. rewrite (Lib.sumto_upd _ (fun x => sent s x - rcv s x) Hr).
  - now rewrite upd_same.
  - intros x Hx. now rewrite upd_other.
Qed.

Lemma step_inv s a s' : Inv s -> step c s a = Some s' -> Inv s'.
Proof.
  intros [Hle Hzero Hcap Hhist Honly Hdone Hclo Hseen] Hs. assert (G : enabled s a) by (apply step_enabled; congruence).
  assert (Ho : forall r, r < ns c -> opn s r = true -> seen s = true -> False).
  { intros r Hr Eo Hse. rewrite (proj1 Hclo (proj1 (Hseen Hse)) r Hr) in Eo. discriminate. }
  (* in each case [auto] settles the fields in which the step changes nothing *)
  destruct a as [r|r|r|]; apply Lib.guarded_some in Hs; subst s'.
  - (* PSend *)
    destruct G as (Er & Eo & El & Eq). destruct (Hle r Er) as [A B]. pose proof (queued_send s r Er) as Q.
    constructor; simpl; auto.
    + (* i_le *) intros x Hx. destruct (Nat.eq_dec x r) as [->|Hne]; [rewrite upd_same; lia|rewrite upd_other by assumption; auto].
    + (* i_zero *) intros x Hx. rewrite upd_other by lia. auto.
    + (* i_cap *) unfold queued. simpl. lia.
    + (* i_done *) intros x Hx Hc. destruct (Nat.eq_dec x r) as [->|Hne]; [congruence|rewrite upd_other by assumption; auto].
    + (* i_seen *) intros Hse. destruct (Ho r Er Eo Hse).
  - (* PClose *)
    destruct G as (Er & Eo & El).
    constructor; simpl; auto.
    + (* i_zero *) intros x Hx. rewrite upd_other by lia. auto.
    + (* i_done *) intros x Hx Hc. destruct (Nat.eq_dec x r) as [->|Hne]; auto. rewrite upd_other in Hc by assumption. auto.
    + (* i_clo *) apply all_closed_spec.
    + (* i_seen *) intros Hse. destruct (Ho r Er Eo Hse).
  - (* PRecv *)
    destruct G as (Er & El & Ese). destruct (Hle r Er) as [A B]. pose proof (queued_recv s r Er) as Q.
    constructor; simpl; auto.
    + (* i_le *) intros x Hx. destruct (Nat.eq_dec x r) as [->|Hne]; [rewrite upd_same; lia|rewrite upd_other by assumption; auto].
    + (* i_zero *) intros x Hx. rewrite upd_other by lia. auto.
    + (* i_cap *) unfold queued. simpl. lia.
    + (* i_hist *) intros x Hx. rewrite from_snoc. destruct (Nat.eqb_spec r x) as [->|Hne].
      * rewrite upd_same, Hhist by assumption. symmetry. apply firstn_S_nth. lia.
      * rewrite upd_other by auto. auto.
    + (* i_only *) intros x Hx. rewrite from_snoc. destruct (Nat.eqb_spec r x); [lia|auto].
    + (* i_seen *) congruence.
  - (* PSeeClosed *)
    destruct G as (Ec & Eq & Ese). constructor; auto.
Qed.

Lemma run_inv l : forall s s', Inv s -> run c s l = Some s' -> Inv s'.
Proof. apply (Lib.run_invariant (step c) (run c)); [reflexivity|reflexivity|exact step_inv]. Qed.

(* C08, and C04 in every reachable state (PropC04.C04_port_merge) *)
Theorem merge_is_orderly l s : run c (init c) l = Some s ->
  (forall r, r < ns c -> from r (hist s) = firstn (rcv s r) (plan c r)) /\
  (forall r, ns c <= r -> from r (hist s) = []) /\ (queued c s <= cap c).
Proof. intros H. destruct (run_inv l _ _ init_inv H). auto. Qed.

(* C04 (PropC04.C04_port_closes_with_last) *)
Theorem closes_with_last l s : run c (init c) l = Some s ->
  (closed s = true <-> forall r, r < ns c -> opn s r = false) /\
  (forall r, r < ns c -> opn s r = false -> sent s r = length (plan c r)).
Proof. intros H. destruct (run_inv l _ _ init_inv H). auto. Qed.

(* C04 at the end (PropC04.C04_port_complete) *)
Theorem complete_when_seen l s : run c (init c) l = Some s -> seen s = true ->
  forall r, r < ns c -> from r (hist s) = plan c r.
Proof.
  intros H Hse r Hr. pose proof (run_inv l _ _ init_inv H) as I.
  destruct (i_seen s I Hse) as [Hc Hq]. rewrite (i_hist s I) by assumption.
  (* the port is closed, so r has sent all of its plan; nothing is queued, so all of it has been received *)
  pose proof (i_done s I r Hr (proj1 (i_clo s I) Hc r Hr)) as Hs. pose proof (sumto_zero _ _ Hq r Hr) as Hz. simpl in Hz.
  replace (rcv s r) with (length (plan c r)) by (destruct (i_le s I r Hr); lia). apply firstn_all.
Qed.

(* no deadlock, whatever the buffer size (>= 1), the number of upstreams and the lengths of their streams *)
Theorem port_progress l s : run c (init c) l = Some s -> seen s = false -> exists a, step c s a <> None.
Proof.
  intros H Hse. pose proof (run_inv l _ _ init_inv H) as I.
  enough (exists a, enabled s a) as [a E] by (exists a; apply step_enabled, E).
  destruct (Nat.eq_dec (queued c s) 0) as [Hq|Hq].
  - (* nothing queued *)
    destruct (closed s) eqn:Ec; [exists PSeeClosed; simpl; auto|].
    (* some upstream is still open: it sends its next item, or closes *)
    destruct (exists_open (opn s) (ns c)) as [r [Hr Ho]].
    { apply not_true_is_false. intros F. enough (closed s = true) by congruence. apply (i_clo s I), all_closed_spec, F. }
    destruct (i_le s I r Hr) as [A B]. destruct (Nat.eq_dec (sent s r) (length (plan c r))) as [E|E].
    + exists (PClose r). simpl. auto.
    + exists (PSend r). repeat split; auto; lia.
  - (* some sender has more sent than received: the receiver can take it *)
    destruct (exists_queued _ _ _ Hq) as [r [Hr Hl]]. exists (PRecv r). simpl. auto.
Qed.

End Proofs.

(* non-vacuity: two upstreams with 2 and 1 items into a buffer of one *)
Definition ex_cfg : cfg := {| ns := 2; plan := fun r => if Nat.eqb r 0 then [10; 11] else [20]; cap := 1 |}.
Example ex_run :
  exists s, run ex_cfg (init ex_cfg) [PSend 0; PRecv 0; PSend 1; PRecv 1; PClose 1; PSend 0; PRecv 0; PClose 0; PSeeClosed] = Some s
            /\ hist s = [(0, 10); (1, 20); (0, 11)] /\ seen s = true.
Proof. eexists. split; [vm_compute; reflexivity|]. split; reflexivity. Qed.
