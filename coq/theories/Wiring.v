(* C16, RunTo: upstreamProcsForProc collects exactly the transitive upstream closure of a process in an acyclic graph, so
   RunToProcs runs the targets and everything upstream of them, and every producer of a process that runs runs too. *)
From Coq Require Import List Lia.
Import ListNotations.

Section Closure.
(* self-edges (a FromStr feeder belongs to the process it feeds, port.go:323-326) are left out of [preds], as in
   WfModel.ups_of: they add only v itself, which [run_set] holds anyway *)
Variable preds : nat -> list nat.                 (* direct producers over file and parameter edges *)
Hypothesis topo : forall v u, In u (preds v) -> u < v.   (* acyclic: processes indexed topologically *)

(* Go (workflow.go, collectUpstreamProcs): for each in-port / param-port and each remote: add the remote's process and,
   recursively, its upstreams, skipping a process it has collected already.  [up] keeps no visited set: it lists a process
   once per path to it (PropC16.C16_example has 0 twice), which adds no member; fuel ends the recursion instead *)
Fixpoint up (fuel : nat) (v : nat) : list nat :=
  match fuel with
  | O => []
  | S f => flat_map (fun u => u :: up f u) (preds v)
  end.

Inductive reach : nat -> nat -> Prop :=
| r_step u v : In u (preds v) -> reach u v
| r_trans u w v : In w (preds v) -> reach u w -> reach u v.

Lemma reach_lt u v : reach u v -> u < v.
Proof. induction 1 as [u v H|u w v H _ IH]; [apply topo; auto|]. apply topo in H. lia. Qed.

Theorem up_is_closure fuel : forall v, v <= fuel -> forall u, In u (up fuel v) <-> reach u v.
Proof.
  induction fuel as [|f IH]; intros v Hv u.
  - simpl. split; [tauto|]. intros R. apply reach_lt in R. lia.
  - simpl. rewrite in_flat_map. split.
    + intros [w [Hw [->|Hin]]].
      * constructor; auto.
      * pose proof (topo _ _ Hw). apply (r_trans u w v); auto. apply IH in Hin; auto. lia.
    + intros R. inversion R as [? ? H|? w ? H R'].
      * exists u. split; auto. left; reflexivity.
      * exists w. split; auto. right. pose proof (topo _ _ H). apply IH; auto. lia.
Qed.

(* RunToProcs (workflow.go:297-304): each target plus its upstream closure *)
Definition run_set (fuel : nat) (targets : list nat) : list nat :=
  flat_map (fun t => t :: up fuel t) targets.

Theorem C16_run_set fuel targets : (forall t, In t targets -> t <= fuel) ->
  forall p, In p (run_set fuel targets) <-> exists t, In t targets /\ (p = t \/ reach p t).
Proof.
  intros Hf p. unfold run_set. rewrite in_flat_map. split.
  - intros [t [Ht [E|Hin]]]; exists t; split; auto. right. apply (up_is_closure fuel t); auto.
  - intros [t [Ht [E|R]]]; exists t; split; auto; [left; auto|right]. apply (up_is_closure fuel t); auto.
Qed.

Theorem C16_closed_upward fuel targets p u : (forall t, In t targets -> t <= fuel) ->
  In p (run_set fuel targets) -> In u (preds p) -> In u (run_set fuel targets).
Proof.
  intros Hf Hp Hu. apply (C16_run_set fuel targets Hf) in Hp. destruct Hp as [t [Ht Hpt]].
  apply (C16_run_set fuel targets Hf). exists t. split; [exact Ht|]. right. destruct Hpt as [->|R].
  - (* p is the target *) constructor. exact Hu.
  - (* p is upstream of the target: so is u *) clear -R Hu. induction R as [p v H|p w v H R IH].
    + apply (r_trans u p v); auto. constructor; auto.
    + apply (r_trans u w v); auto.
Qed.
End Closure.
Print Assumptions C16_run_set.
