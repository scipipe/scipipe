(* C11: the byte-level round trip.  decode (jrender d r) = Some r for every record tree whose strings are ASCII. *)
From Coq Require Import List Ascii String Arith Bool Lia.
Import ListNotations.
From SP Require Import PathLex Json JsonProofs.

Lemma lrun_app st a b : lrun st (a ++ b) = lrun (lrun st a) b.
Proof. unfold lrun. apply fold_left_app. Qed.

Lemma lrun_short : Forall (fun ec => forall toks acc, lrun (toks, MStr acc) [bs; fst ec] = (toks, MStr (snd ec :: acc))) short_escapes.
Proof. repeat constructor. Qed.

Lemma lrun_spells c e : spells c e -> forall toks acc, lrun (toks, MStr acc) e = (toks, MStr (c :: acc)).
Proof.
  intros [Hq Hb|e' Hin|h1 h2 h3 h4 d1 d2 d3 d4 H1 H2 H3 H4 V Hn] toks acc.
  - exact (not_special c _ _ _ Hq Hb).
  - exact (proj1 (Forall_forall _ _) lrun_short (e', c) Hin toks acc).
  - unfold lrun. simpl. rewrite H1. simpl. rewrite H2. simpl. rewrite H3. simpl. rewrite H4.
    rewrite V, (proj2 (Nat.ltb_lt _ _) Hn), ascii_nat_embedding. reflexivity.
Qed.

Lemma lrun_escape toks s : Forall is_ascii7 s -> forall acc, lrun (toks, MStr acc) (escape s) = (toks, MStr (rev s ++ acc)).
Proof.
  intros H. induction H as [|c s Hc _ IH]; intros acc; [reflexivity|].
  change (escape (c :: s)) with (escape_char c ++ escape s).
  rewrite lrun_app, (lrun_spells c _ (escape_char_spells c Hc)), IH. cbn [rev]. rewrite <- app_assoc. reflexivity.
Qed.

Definition ascii_str (s : str) : Prop := Forall is_ascii7 s.
Definition ascii_kv (l : list (str * str)) : Prop := Forall (fun kv => ascii_str (fst kv) /\ ascii_str (snd kv)) l.

(* run from between tokens, the bytes s add exactly the tokens X and end between tokens *)
Definition lexes (s : str) (X : list jtok) : Prop := forall toks, lrun (toks, MNorm) s = (rev X ++ toks, MNorm).

(* `lexes_app H` peels the piece that H reads off a goal of the form piece ++ rest; the lemmas below with a continuation
   `b` / `Y` have that shape *)
Lemma lexes_app {a X} (Ha : lexes a X) {b Y} (Hb : lexes b Y) : lexes (a ++ b) (X ++ Y).
Proof. intros toks. rewrite lrun_app, (Ha toks), Hb, rev_app_distr, app_assoc. reflexivity. Qed.

Lemma lexes_ws s : Forall (fun c => is_ws c = true) s -> lexes s [].
Proof.
  intros H toks. induction H as [|c s Hc _ IH]; [reflexivity|].
  unfold lrun. cbn [fold_left lstep]. unfold step_norm. rewrite Hc. exact IH.
Qed.

Lemma lexes_indent d : lexes (indent d) [].
Proof.
  apply lexes_ws. unfold indent. induction d as [|d IH]; simpl; [constructor|].
  repeat (constructor; [reflexivity|]). exact IH.
Qed.

Lemma lexes_colon : lexes (s2l ": ") [TColon]. Proof. intros toks. reflexivity. Qed.
Lemma lexes_comma : lexes [","%char; nlc] [TComma]. Proof. intros toks. reflexivity. Qed.
Lemma lexes_nl : lexes [nlc] []. Proof. intros toks. reflexivity. Qed.
Lemma lexes_open : lexes ["{"%char; nlc] [TLBrace]. Proof. intros toks. reflexivity. Qed.
Lemma lexes_close : lexes ["}"%char] [TRBrace]. Proof. intros toks. reflexivity. Qed.
Lemma lexes_empty : lexes (s2l "{}") [TLBrace; TRBrace]. Proof. intros toks. reflexivity. Qed.

Lemma lexes_jstr {s} : ascii_str s -> lexes (jstr s) [TStr s].
Proof.
  intros H toks. unfold jstr. change (dq :: escape s ++ [dq]) with ([dq] ++ escape s ++ [dq]).
  rewrite !lrun_app. change (lrun (toks, MNorm) [dq]) with (toks, MStr []).
  rewrite (lrun_escape toks s H []). rewrite app_nil_r.
  unfold lrun. cbn [fold_left lstep]. rewrite Ascii.eqb_refl. rewrite rev_involutive. reflexivity.
Qed.

Lemma digit_char k : k < 10 -> is_digit (ascii_of_nat (48 + k)) = true /\ digit_val (ascii_of_nat (48 + k)) = k.
Proof.
  intros H. unfold is_digit, digit_val. rewrite nat_ascii_embedding by lia.
  (* 48 <= 48 + k is true, and 48 + k <= 57 and 48 + k - 48 are k <= 9 and k - 0, by computation *)
  change ((k <=? 9) = true /\ k - 0 = k).
  split; [apply Nat.leb_le, Nat.lt_succ_r, H|apply Nat.sub_0_r].
Qed.

Lemma is_digit_range c : is_digit c = true -> 48 <= nat_of_ascii c <= 57.
Proof. intros H. apply andb_true_iff in H. split; apply Nat.leb_le, H. Qed.

Lemma step_norm_digit toks c : is_digit c = true -> step_norm toks c = (toks, MNum false (digit_val c)).
Proof.
  intros H. unfold step_norm.
  assert (W : is_ws c = false).
  { unfold is_ws.
    (* with the code written 48 + m, the four comparisons compute *)
    rewrite <- (Nat.sub_add 48 (nat_of_ascii c) (proj1 (is_digit_range c H))), Nat.add_comm. reflexivity. }
  assert (NE : forall x, is_digit x = false -> Ascii.eqb c x = false).
  { intros x Hx. apply Ascii.eqb_neq. intros ->. congruence. }
  rewrite W, !NE, H by reflexivity. reflexivity.
Qed.

(* digits puts the decimal digits of n in front of acc: read from a state in which a digit starts a number, they leave the
   number n for acc to go on from *)
Lemma lrun_digits st toks neg : (forall c, is_digit c = true -> lstep st c = (toks, MNum neg (digit_val c))) ->
  forall f n acc, n < f -> lrun st (digits f n acc) = lrun (toks, MNum neg n) acc.
Proof.
  intros Hst. induction f as [|f IH]; intros n acc Hn; [inversion Hn|].
  cbn [digits]. destruct (digit_char (n mod 10)) as [D1 D2]; [apply Nat.mod_upper_bound; discriminate|].
  (* from here on the digit is any character c with D1 and D2: left written out, every conversion that meets
     is_digit (ascii_of_nat (48 + n mod 10)) tries to compute it *)
  remember (ascii_of_nat (48 + n mod 10)) as c eqn:E. clear E.
  destruct (Nat.ltb_spec n 10) as [L|L].
  - unfold lrun. cbn [fold_left]. rewrite (Hst _ D1), D2, Nat.mod_small by exact L. reflexivity.
  - rewrite IH by (apply Nat.div_lt_upper_bound; [discriminate|lia]).
    unfold lrun. cbn [fold_left lstep]. rewrite D1, D2, (Nat.mul_comm (n / 10)), <- Nat.div_mod by discriminate. reflexivity.
Qed.

Lemma lrun_jnum toks neg n : lrun (toks, MNorm) (jnum neg n) = (toks, MNum neg n).
Proof.
  unfold jnum. destruct neg; cbn [app].
  - apply (lrun_digits (toks, MNum true 0) toks true); [|apply Nat.lt_succ_diag_r].
    intros c Hc. cbn [lstep]. rewrite Hc. reflexivity.
  - apply (lrun_digits (toks, MNorm) toks false (step_norm_digit toks)), Nat.lt_succ_diag_r.
Qed.

(* a number does not lex on its own: it ends at the first byte that is not a digit *)
Lemma lexes_jnum neg n c b Y : is_digit c = false -> lexes (c :: b) Y -> lexes (jnum neg n ++ c :: b) (TNum neg n :: Y).
Proof.
  intros Hc Hb toks. rewrite lrun_app, lrun_jnum.
  transitivity (lrun (TNum neg n :: toks, MNorm) (c :: b)); [unfold lrun; cbn [fold_left lstep]; now rewrite Hc|].
  rewrite Hb. cbn [rev]. rewrite <- app_assoc. reflexivity.
Qed.

Lemma lexes_key d {k b Y} : ascii_str k -> lexes b Y -> lexes (indent d ++ jstr k ++ s2l ": " ++ b) (TStr k :: TColon :: Y).
Proof. intros Hk Hb. exact (lexes_app (lexes_indent d) (lexes_app (lexes_jstr Hk) (lexes_app lexes_colon Hb))). Qed.

Lemma smap_entries_more d k v kv l : smap_entries d ((k, v) :: kv :: l) =
  indent (S d) ++ jstr k ++ s2l ": " ++ jstr v ++ [","%char; nlc] ++ smap_entries d (kv :: l).
Proof. reflexivity. Qed.

Lemma lexes_entries d : forall l, ascii_kv l -> lexes (smap_entries d l) (tpairs l).
Proof.
  induction l as [|[k v] l IH]; intros Ha; [intros toks; reflexivity|].
  inversion Ha as [|? ? [Hk Hv] Ha'].
  destruct l as [|kv l].
  - exact (lexes_key _ Hk (lexes_app (lexes_jstr Hv) lexes_nl)).
  - rewrite smap_entries_more, tpairs_more.
    exact (lexes_key _ Hk (lexes_app (lexes_jstr Hv) (lexes_app lexes_comma (IH Ha')))).
Qed.

Lemma lexes_smap d l : ascii_kv l -> lexes (render_smap d l) (tsmap l).
Proof.
  intros Ha. destruct l as [|kv l]; [apply lexes_empty|].
  exact (lexes_app lexes_open (lexes_app (lexes_entries d _ Ha) (lexes_app (lexes_indent d) lexes_close))).
Qed.

(* the local fix of jrender over the Upstream entries, as a function of its own (see JsonProofs.ptoks_unfold) *)
Definition rups (d : nat) : list (str * jrec) -> str :=
  fix go (l : list (str * jrec)) : str :=
  match l with
  | [] => []
  | (k, u) :: r => match r with
                   | [] => indent (S (S d)) ++ jstr k ++ s2l ": " ++ jrender (S (S d)) u ++ [nlc]
                   | _ => indent (S (S d)) ++ jstr k ++ s2l ": " ++ jrender (S (S d)) u ++ ","%char :: nlc :: go r
                   end
  end.

Definition vrender (d : nat) (v : jval) : str :=
  match v with VStr s => jstr s | VMap l => render_smap (S d) l | VNum neg n => jnum neg n end.

(* the bytes of a field list (JsonProofs.fields): one line per field *)
Fixpoint frender (d : nat) (fs : list (string * jval)) (b : str) : str :=
  match fs with
  | [] => b
  | (k, v) :: fs' => (indent (S d) ++ jstr (s2l k) ++ s2l ": " ++ vrender d v ++ ","%char :: [nlc]) ++ frender d fs' b
  end.

Lemma jrender_unfold d h up :
  jrender d (mkrec h up) =
  "{"%char :: nlc :: frender d (fields h) (indent (S d) ++ jstr (s2l "Upstream") ++ s2l ": " ++
  (match up with [] => s2l "{}" | _ => "{"%char :: nlc :: rups d up ++ indent (S d) ++ ["}"%char] end) ++
  nlc :: indent d ++ ["}"%char]).
Proof. reflexivity. Qed.

(* a closed string is checked by evaluation *)
Definition ascii7b (c : ascii) : bool := match c with Ascii _ _ _ _ _ _ _ b7 => negb b7 end.
Lemma ascii_strb s : forallb ascii7b s = true -> ascii_str s.
Proof.
  intros H. apply Forall_forall. intros [b0 b1 b2 b3 b4 b5 b6 b7] Hc.
  apply (proj1 (forallb_forall _ _) H) in Hc. now destruct b7.
Qed.

Definition ascii_field (kv : string * jval) : Prop :=
  forallb ascii7b (s2l (fst kv)) = true /\
  match snd kv with VStr s => ascii_str s | VMap l => ascii_kv l | VNum _ _ => True end.

Lemma lexes_fields d fs b Y : Forall ascii_field fs -> lexes b Y -> lexes (frender d fs b) (ftoks fs Y).
Proof.
  intros H Hb. induction H as [|[k v] fs [Hk Hv] _ IH]; [exact Hb|].
  cbn [frender ftoks]. rewrite <- !app_assoc. apply (lexes_key _ (ascii_strb _ Hk)).
  destruct v as [s|l|neg n]; cbn [vrender vtoks snd].
  - exact (lexes_app (lexes_jstr Hv) (lexes_app lexes_comma IH)).
  - exact (lexes_app (lexes_smap _ l Hv) (lexes_app lexes_comma IH)).
  - apply lexes_jnum; [reflexivity|]. exact (lexes_app lexes_comma IH).
Qed.

Lemma lexes_rups d up :
  (forall k u, In (k, u) up -> ascii_str k /\ forall d', lexes (jrender d' u) (ptoks u)) -> lexes (rups d up) (tups ptoks up).
Proof.
  induction up as [|[k u] up IH]; intros H; [intros toks; reflexivity|].
  destruct (H k u (or_introl eq_refl)) as [Hk Hu].
  destruct up as [|ku up].
  - pose proof (lexes_key (S (S d)) Hk (lexes_app (Hu (S (S d))) lexes_nl)) as L. rewrite app_nil_r in L. exact L.
  - exact (lexes_key _ Hk (lexes_app (Hu _) (lexes_app lexes_comma (IH (fun k' u' Hin => H k' u' (or_intror Hin)))))).
Qed.

(* every string of the record tree is 7-bit ASCII (bytes >= 0x80 are UTF-8 sequences in Go; not modelled) *)
Fixpoint ascii_rec (r : jrec) : Prop :=
  match r with
  | JRec id proc cmd params tags start finish _ _ outs up =>
    ascii_str id /\ ascii_str proc /\ ascii_str cmd /\ ascii_kv params /\ ascii_kv tags /\ ascii_str start /\ ascii_str finish /\
    ascii_kv outs /\
    (fix go (l : list (str * jrec)) : Prop := match l with [] => True | (k, u) :: r => ascii_str k /\ ascii_rec u /\ go r end) up
  end.

(* the last clause of ascii_rec, a local fix, as a Forall *)
Lemma ascii_ups (up : list (str * jrec)) :
  (fix go (l : list (str * jrec)) : Prop := match l with [] => True | (k, u) :: r => ascii_str k /\ ascii_rec u /\ go r end) up <->
  Forall (fun ku => ascii_str (fst ku) /\ ascii_rec (snd ku)) up.
Proof.
  induction up as [|[k u] up IH]; [split; constructor|]. split.
  - intros [Hk [Hu Hr]]. constructor; [exact (conj Hk Hu)|apply IH, Hr].
  - intros H. inversion H as [|? ? [Hk Hu] Hr]. exact (conj Hk (conj Hu (proj2 IH Hr))).
Qed.

Lemma ascii_rec_fields h up : ascii_rec (mkrec h up) ->
  Forall ascii_field (fields h) /\ Forall (fun ku => ascii_str (fst ku) /\ ascii_rec (snd ku)) up.
Proof.
  unfold mkrec. intros [Hid [Hproc [Hcmd [Hpar [Htag [Hst [Hfi [Hout Hup]]]]]]]]. split; [|apply ascii_ups, Hup].
  repeat (constructor; [split; [reflexivity|first [assumption|exact I]]|]). constructor.
Qed.

(* ascii_rec from its parts, each given on its own: for a closed record (ascii_rec_ex) every part is then checked once *)
Lemma ascii_rec_JRec id proc cmd params tags start finish neg exec outs up :
  ascii_str id -> ascii_str proc -> ascii_str cmd -> ascii_kv params -> ascii_kv tags -> ascii_str start -> ascii_str finish ->
  ascii_kv outs -> Forall (fun ku => ascii_str (fst ku) /\ ascii_rec (snd ku)) up ->
  ascii_rec (JRec id proc cmd params tags start finish neg exec outs up).
Proof. intros. repeat (split; [assumption|]). apply ascii_ups. assumption. Qed.

(* C11_lexer_reads_rendering *)
Theorem lexes_jrender : forall r, ascii_rec r -> forall d, lexes (jrender d r) (ptoks r).
Proof.
  induction r as [h up IH] using jrec_ind'.
  intros HA d. destruct (ascii_rec_fields h up HA) as [HF Hch].
  rewrite jrender_unfold, ptoks_unfold.
  apply (lexes_app lexes_open), (lexes_fields _ _ _ _ HF), (lexes_key _ (ascii_strb (s2l "Upstream") eq_refl)).
  destruct up as [|ku up'].
  - exact (lexes_app lexes_empty (lexes_app lexes_nl (lexes_app (lexes_indent d) lexes_close))).
  - cbn [app]. rewrite <- !app_assoc.
    refine (lexes_app lexes_open (lexes_app (lexes_rups d _ _) (lexes_app (lexes_indent _) (lexes_app lexes_close
              (lexes_app lexes_nl (lexes_app (lexes_indent d) lexes_close)))))).
    intros k u Hin. destruct (proj1 (Forall_forall _ _) Hch (k, u) Hin) as [Hk Hu]. split; [exact Hk|].
    intros d'. exact (proj1 (Forall_forall _ _) IH (k, u) Hin Hu d').
Qed.

Lemma tups_height (up : list (str * jrec)) :
  Forall (fun ku => height (snd ku) <= length (ptoks (snd ku))) up ->
  fold_right (fun ku a => Nat.max (height (snd ku)) a) 0 up <= length (tups ptoks up).
Proof.
  intros H. induction H as [|[k u] up Hu _ IH]; [apply le_n|].
  destruct up as [|ku up]; cbn [fold_right snd] in *.
  - cbn [tups length]. lia.
  - rewrite tups_more. cbn [length]. rewrite app_length. cbn [length]. lia.
Qed.

(* the fuel decode gives the parser is enough: a record is never taller than its token sequence is long *)
Lemma height_le_toks : forall r, height r <= length (ptoks r).
Proof.
  induction r as [h up IH] using jrec_ind'.
  rewrite ptoks_unfold. unfold head_toks, mkrec. apply le_n_S.
  etransitivity; [apply (tups_height up IH)|]. etransitivity; [|apply ftoks_length].
  cbn [tkey app length]. rewrite app_length. lia.
Qed.

(* C11_roundtrip_bytes *)
Theorem decode_jrender : forall r d, ascii_rec r -> decode (jrender d r) = Some r.
Proof.
  intros r d HA. unfold decode, lex. rewrite (lexes_jrender r HA d []). rewrite app_nil_r, rev_involutive.
  pose proof (prec_ptoks r (S (length (ptoks r))) [] (Nat.le_trans _ _ _ (height_le_toks r) (Nat.le_succ_diag_r _))) as HP.
  rewrite app_nil_r in HP. rewrite HP. reflexivity.
Qed.

Example ascii_rec_ex : ascii_rec ex_rec.
Proof.
  assert (L : ascii_rec ex_leaf) by (apply ascii_rec_JRec; try (apply ascii_strb; reflexivity); constructor).
  apply ascii_rec_JRec; try (apply ascii_strb; reflexivity).
  all: repeat (constructor; [split; first [apply ascii_strb; reflexivity|exact L]|]); constructor.
Qed.
