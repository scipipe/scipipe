(* The process network (NetA) composed with the task-slot machine (Slots): C05 "whatever the stream lengths relative to
   buffer sizes and slot counts".
   In NetA a task's exit is always possible.  Here a task handed over by createTasks (AHand) is spawned into the slot
   machine, where it goes through IncConcurrentTasks / command / DecConcurrentTasks competing with every other task of
   the workflow for the tokens; the network sees its Done (PExit) only once the slot machine has brought it to Finished. *)
From Coq Require Import List Lia Bool PeanoNat.
Import ListNotations.
From SP Require Import Lib.
From SP Require NetA Inv Pres Dead Term Slots Slots7 SlotsTop.

Record pcfg := { ncfg : NetA.cfg; pcap : nat; pcores : nat -> nat }.
(* tid is the registry of spawned tasks: its entry k says which process created task k of the slot machine, and as which
   of its tasks (the creation number, counted from 0) *)
Record pst := { net : NetA.st; sl : Slots.state; tid : list (nat * nat) }.

Definition pinit (p : pcfg) : pst :=
  {| net := NetA.init (ncfg p); sl := SlotsTop.init (pcap p) []; tid := [] |}.

Definition new_task (c : nat) : Slots.task := {| Slots.cores := c; Slots.st := Slots.Idle |}.
Definition add_task (s : Slots.state) (c : nat) : Slots.state :=
  {| Slots.cap := Slots.cap s; Slots.tokens := Slots.tokens s; Slots.mutex := Slots.mutex s;
     Slots.tasks := Slots.tasks s ++ [new_task c] |}.

(* the number, in creation order, of the task at position i of the in-flight list of a process *)
Definition absno (n : NetA.nst) (i : nat) : nat := NetA.eN n + Inv.sending n + i.

Definition is_finished (t : Slots.task) : bool := match Slots.st t with Slots.Finished => true | _ => false end.

Inductive pact :=
| PNet (a : NetA.act)        (* a step of the network other than a task's exit *)
| PSlot (k : nat)            (* a step of spawned task k in the slot machine *)
| PExit (v i k : nat).       (* the Done of the task at position i of process v: it is spawned task k, which has finished *)

Definition with_net (s : pst) (n : NetA.st) : pst := {| net := n; sl := sl s; tid := tid s |}.

(* AHand spawns a slot task at every node, a source too: for a Process without ports that is its one task; a source
   component, which takes no slot in Go, is not told apart. *)
Definition pstep (p : pcfg) (s : pst) (a : pact) : option pst :=
  match a with
  | PSlot k => option_map (fun x => {| net := net s; sl := x; tid := tid s |}) (Slots.step (sl s) k)
  | PExit v i k =>
      match nth_error (tid s) k, nth_error (Slots.tasks (sl s)) k with
      | Some (v', j), Some t =>
          if Nat.ltb v (NetA.nn (ncfg p)) && Nat.eqb v' v && Nat.eqb j (absno (NetA.ns (net s) v) i) && is_finished t
          then option_map (with_net s) (NetA.step (ncfg p) (net s) (NetA.AExit v i))
          else None
      | _, _ => None
      end
  | PNet (NetA.AExit _ _) => None
  | PNet (NetA.AHand v) =>
      if Nat.ltb v (NetA.nn (ncfg p))
      then option_map (fun n => {| net := n; sl := add_task (sl s) (pcores p v);
                                   tid := tid s ++ [(v, NetA.cN (NetA.ns (net s) v))] |})
                      (NetA.step (ncfg p) (net s) (NetA.AHand v))
      else None
  | PNet a =>
      if Nat.ltb (NetA.node_of a) (NetA.nn (ncfg p))
      then option_map (with_net s) (NetA.step (ncfg p) (net s) a)
      else None
  end.

Fixpoint prun (p : pcfg) (s : pst) (l : list pact) : option pst :=
  match l with [] => Some s | a :: r => match pstep p s a with Some s' => prun p s' r | None => None end end.

(* [pstep] in rule form; PMNet excludes AHand, which spawns (PMHand), and AExit, which the product takes only as PExit
   (PMExit) *)
Inductive pmove (p : pcfg) (s : pst) : pact -> pst -> Prop :=
| PMNet a n' : (forall v, a <> NetA.AHand v) -> (forall v i, a <> NetA.AExit v i) ->
    NetA.node_of a < NetA.nn (ncfg p) -> NetA.step (ncfg p) (net s) a = Some n' ->
    pmove p s (PNet a) (with_net s n')
| PMHand v n' : v < NetA.nn (ncfg p) -> NetA.step (ncfg p) (net s) (NetA.AHand v) = Some n' ->
    pmove p s (PNet (NetA.AHand v))
      {| net := n'; sl := add_task (sl s) (pcores p v); tid := tid s ++ [(v, NetA.cN (NetA.ns (net s) v))] |}
| PMSlot k x : Slots.step (sl s) k = Some x -> pmove p s (PSlot k) {| net := net s; sl := x; tid := tid s |}
| PMExit v i k t n' : v < NetA.nn (ncfg p) -> nth_error (tid s) k = Some (v, absno (NetA.ns (net s) v) i) ->
    nth_error (Slots.tasks (sl s)) k = Some t -> is_finished t = true ->
    NetA.step (ncfg p) (net s) (NetA.AExit v i) = Some n' -> pmove p s (PExit v i k) (with_net s n').

Lemma guard_map {A B} {b : bool} {f : A -> B} {o : option A} {y : B} :
  (if b then option_map f o else None) = Some y -> b = true /\ exists x, o = Some x /\ y = f x.
Proof. destruct b, o as [x|]; try discriminate. intros [= <-]. eauto. Qed.

Lemma pstep_pmove p s a s' : pstep p s a = Some s' -> pmove p s a s'.
Proof.
  intros H. destruct a as [a|k|v i k]; cbn [pstep] in H.
  - (* PNet *)
    destruct a as [v perm|v|v|v|v i|v perm|v|v|v];
      try discriminate H;                          (* AExit is no step of the product: H is None = Some _ *)
      destruct (guard_map H) as (B & n' & S & ->); apply Nat.ltb_lt in B;
      try (apply PMNet; auto; discriminate).       (* the seven actions that are neither AHand nor AExit *)
    (* AHand *) apply PMHand; assumption.
  - (* PSlot *) destruct (Slots.step (sl s) k) as [x|] eqn:S; [|discriminate]. injection H as <-. apply PMSlot, S.
  - (* PExit *) destruct (nth_error (tid s) k) as [[v' j]|] eqn:Hk; [|discriminate].
    destruct (nth_error (Slots.tasks (sl s)) k) as [t|] eqn:Ht; [|discriminate].
    destruct (guard_map H) as (G & n' & S & ->).
    rewrite !andb_true_iff, Nat.ltb_lt, !Nat.eqb_eq in G. destruct G as [[[B ->] ->] F].
    eapply PMExit; eauto.
Qed.

Lemma net_enabled p s a : NetA.node_of a < NetA.nn (ncfg p) -> NetA.step (ncfg p) (net s) a <> None ->
  pstep p s (PNet a) <> None \/ exists v i, a = NetA.AExit v i.
Proof.
  intros B S. apply Nat.ltb_lt in B. destruct a as [v perm|v|v|v|v i|v perm|v|v|v]; cbn [pstep NetA.node_of] in *.
  all: try (left; rewrite B; destruct (NetA.step _ _ _); [discriminate|destruct (S eq_refl)]).
  right. eauto.
Qed.

Lemma nth_set_nth_other (l : list bool) : forall i j b, i <> j -> nth_error (NetA.set_nth l i b) j = nth_error l j.
Proof. induction l as [|a l IH]; intros [|i] [|j] b H; simpl; auto; congruence. Qed.

(* j is a creation number (absno), not a position in [fl]: positions shift when the head is popped *)
Definition live (n : NetA.nst) (j : nat) : Prop := exists i, j = absno n i /\ nth_error (NetA.fl n) i = Some false.

Lemma step_cN {c s a s'} : NetA.step c s a = Some s' -> forall w,
  (a <> NetA.AHand w /\ NetA.cN (NetA.ns s' w) = NetA.cN (NetA.ns s w)) \/
  (a = NetA.AHand w /\ NetA.cN (NetA.ns s' w) = S (NetA.cN (NetA.ns s w))).
Proof.
  intros H w. destruct (NetA.step_lstep H) as (n' & q' & HL & -> & _).
  destruct (Nat.eq_dec w (NetA.node_of a)) as [->|N]; [rewrite NetA.upd_same|rewrite NetA.upd_other by exact N].
  - destruct HL; try (left; split; [discriminate|reflexivity]). right. split; reflexivity.
  - left. split; [intros ->; apply N; reflexivity|reflexivity].
Qed.

Lemma step_live {c s a s'} : NetA.step c s a = Some s' -> forall w j, live (NetA.ns s w) j ->
  live (NetA.ns s' w) j \/ exists i, a = NetA.AExit w i /\ j = absno (NetA.ns s w) i.
Proof.
  intros H w j [k [Hj Hk]]. destruct (NetA.step_lstep H) as (n' & q' & HL & -> & _).
  destruct (Nat.eq_dec w (NetA.node_of a)) as [->|N]; [rewrite NetA.upd_same|rewrite NetA.upd_other by exact N; left; exists k; auto].
  unfold live, absno, Inv.sending in *.
  destruct HL; simpl in *; try (left; exists k; split; assumption).    (* the rules of createTasks but LHand *)
  - (* LHand *) left. exists k. rewrite Rn in Hj. split; [exact Hj|apply Slots.nth_snoc_old, Hk].
  - (* LExit *) destruct (Nat.eq_dec i k) as [->|Ne]; [right; eauto|].
    left. exists k. rewrite nth_set_nth_other by exact Ne. auto.
  - (* LPop: the head of the in-flight list leaves it: the positions shift, the numbers do not *)
    rewrite Fl in Hk. rewrite Rn in Hj. destruct k as [|k]; [discriminate|]. left. exists k. split; [lia|exact Hk].
  - (* LSend *) left. exists k. rewrite Rn in Hj. auto.
  - (* LEndSend *) left. exists k. rewrite Rn in Hj. split; [lia|exact Hk].
  - (* LFin *) rewrite Fl in Hk. destruct k; discriminate.
Qed.

Lemma hand_live c len s v s' : Inv.NodeInv c len s v -> NetA.step c s (NetA.AHand v) = Some s' ->
  live (NetA.ns s' v) (NetA.cN (NetA.ns s v)).
Proof.
  intros NI H. destruct (NetA.step_lstep H) as (n' & q' & HL & -> & _). rewrite NetA.upd_same.
  remember (NetA.AHand v) as a eqn:A. destruct HL; try discriminate A. injection A as ->.    (* LHand *)
  exists (length (NetA.fl (NetA.ns s v))). unfold absno, Inv.sending. simpl. split; [|apply Slots.nth_snoc_new].
  pose proof (Inv.ni_total NI) as Hc. unfold Inv.sending in Hc. rewrite Rn in Hc. lia.
Qed.

Lemma add_task_inv s c : Slots.Inv s -> Slots.Inv (add_task s c).
Proof.
  intros [I1 I2]. split; simpl; auto. rewrite Slots.sum_app. cbn [Slots.tsum]. change (Slots.held (new_task c)) with 0. lia.
Qed.

Lemma add_task_all s c : SlotsTop.AllInv s -> c <= Slots.cap s -> SlotsTop.AllInv (add_task s c).
Proof.
  intros [I M I3] Hc. constructor.
  - apply add_task_inv, I.
  - (* the new task is idle, and the mutex names a task that was there before *)
    destruct M as [M1 [M2 M3]]. split; [|split].
    + intros i t H D. destruct (Slots.nth_snoc H) as [H'|[-> ->]]; [exact (M1 i t H' D)|discriminate].
    + intros i Hm. destruct (M2 i Hm) as [t [Ht D]]. exists t. split; [apply Slots.nth_snoc_old, Ht|exact D].
    + intros i t k H E. destruct (Slots.nth_snoc H) as [H'|[-> ->]]; [exact (M3 i t k H' E)|discriminate].
  - intros i t H. destruct (Slots.nth_snoc H) as [H'|[-> ->]]; [exact (I3 i t H')|exact Hc].
Qed.

Lemma finished_iff t : is_finished t = true <-> Slots.st t = Slots.Finished.
Proof. unfold is_finished. destruct (Slots.st t); split; congruence. Qed.

Lemma nth_same_length {A B} {l : list A} {m : list B} {k x} :
  length l = length m -> nth_error l k = Some x -> exists y, nth_error m k = Some y.
Proof.
  intros E H. destruct (nth_error m k) as [y|] eqn:Hm; [eauto|]. apply nth_error_None in Hm.
  assert (k < length l) by (apply nth_error_Some; congruence). lia.
Qed.

(* no hypothesis on the network or on what the processes ask for: the network never touches the tokens, and a spawned
   task holds none *)
Lemma product_token_inv p l s : prun p (pinit p) l = Some s -> Slots.Inv (sl s) /\ Slots.cap (sl s) = pcap p.
Proof.
  apply (run_invariant (pstep p) (prun p)) with (P := fun s => Slots.Inv (sl s) /\ Slots.cap (sl s) = pcap p).
  - reflexivity.
  - reflexivity.
  - intros x a x' [I C] H. apply pstep_pmove in H. destruct H as [| |k y S|]; simpl; auto using add_task_inv.
    rewrite (SlotsTop.step_cap S). eauto using Slots.step_inv.
  - split; [apply SlotsTop.init_inv|reflexivity].
Qed.

Section Product.
Variable p : pcfg.
Variable len : nat -> nat.
Hypothesis WF : Inv.wf (ncfg p) len.
(* the guard of C07: no process asks for more cores per task than the workflow has (such a process is rejected at start) *)
Hypothesis FIT : forall v, v < NetA.nn (ncfg p) -> pcores p v <= pcap p.

Let c := ncfg p.

(* both machines keep their invariants, and the registry lists every task created (pi_reg): through it product_not_stuck
   finds the slot task behind an exit that the network could take *)
Record PInv (s : pst) : Prop := {
  pi_net : Inv.Inv c len (net s);
  pi_sl : SlotsTop.AllInv (sl s);
  pi_cap : Slots.cap (sl s) = pcap p;
  pi_len : length (tid s) = length (Slots.tasks (sl s));
  pi_reg : forall v j, v < NetA.nn c -> j < NetA.cN (NetA.ns (net s) v) -> exists k, nth_error (tid s) k = Some (v, j)
}.

Lemma pinit_inv : PInv (pinit p).
Proof.
  constructor; simpl.
  - apply Inv.init_inv.
  - apply SlotsTop.init_all. intros ? [].
  - reflexivity.
  - reflexivity.
  - intros v j _ H. lia.
Qed.

Lemma net_inv_step s a n' : PInv s -> NetA.node_of a < NetA.nn c -> NetA.step c (net s) a = Some n' -> Inv.Inv c len n'.
Proof. intros I Hv H. eapply Pres.step_inv; eauto. apply (pi_net _ I). Qed.

Lemma reg_keep s a n' : PInv s -> NetA.step c (net s) a = Some n' ->
  (forall v, NetA.cN (NetA.ns n' v) = NetA.cN (NetA.ns (net s) v)) ->
  forall v j, v < NetA.nn c -> j < NetA.cN (NetA.ns n' v) -> exists k, nth_error (tid s) k = Some (v, j).
Proof. intros I H Hc v j Hv Hj. rewrite Hc in Hj. apply (pi_reg _ I); auto. Qed.

Lemma cN_same a s n' : NetA.step c s a = Some n' -> (forall v, a <> NetA.AHand v) ->
  forall v, NetA.cN (NetA.ns n' v) = NetA.cN (NetA.ns s v).
Proof. intros H Hne v. destruct (step_cN H v) as [[_ E]|[E _]]; [exact E|destruct (Hne v E)]. Qed.

Lemma with_net_inv {s a n'} : PInv s -> NetA.step c (net s) a = Some n' -> NetA.node_of a < NetA.nn c ->
  (forall v, a <> NetA.AHand v) -> PInv (with_net s n').
Proof.
  intros I S B Hne. pose proof I as [_ I2 I3 I4 _]. constructor; simpl; try assumption.
  - eapply net_inv_step; eauto.
  - eapply reg_keep; eauto. apply (cN_same _ _ _ S Hne).
Qed.

Lemma pstep_inv s a s' : PInv s -> pstep p s a = Some s' -> PInv s'.
Proof.
  intros I H. apply pstep_pmove in H. destruct H as [a n' N1 N2 B S|v n' B S|k x S|v i k t n' B Hk Ht F S].
  - (* PMNet *) exact (with_net_inv I S B N1).
  - (* PMHand: a task is spawned *)
    constructor; simpl.
    + eapply net_inv_step; eauto. exact B.
    + apply add_task_all; [apply (pi_sl _ I)|]. rewrite (pi_cap _ I). apply FIT. exact B.
    + apply (pi_cap _ I).
    + rewrite !app_length. rewrite (pi_len _ I). reflexivity.
    + intros w j Hw Hj.
      assert (Old : j < NetA.cN (NetA.ns (net s) w) ->
                    exists k, nth_error (tid s ++ [(v, NetA.cN (NetA.ns (net s) v))]) k = Some (w, j)).
      { intros L. destruct (pi_reg _ I w j Hw L) as [k Hk]. exists k. apply Slots.nth_snoc_old, Hk. }
      destruct (step_cN S w) as [[_ E]|[[= ->] E]]; rewrite E in Hj; [exact (Old Hj)|].
      destruct (Nat.eq_dec j (NetA.cN (NetA.ns (net s) w))) as [->|Hj']; [|apply Old; lia].
      exists (length (tid s)). apply Slots.nth_snoc_new.
  - (* PMSlot *) destruct I as [I1 I2 I3 I4 I5]. constructor; simpl; auto.
    + eapply SlotsTop.step_all; eauto.
    + rewrite (SlotsTop.step_cap S). exact I3.
    + rewrite (SlotsTop.step_len S). exact I4.
  - (* PMExit *) apply (with_net_inv I S B). intros; discriminate.
Qed.

Lemma prun_inv l : forall s s', PInv s -> prun p s l = Some s' -> PInv s'.
Proof. apply (run_invariant (pstep p) (prun p)); [reflexivity|reflexivity|exact pstep_inv]. Qed.

Theorem product_not_stuck l s :
  prun p (pinit p) l = Some s ->
  (exists v, v < NetA.nn c /\ NetA.rn (NetA.ns (net s) v) <> NetA.RFin) ->
  exists a, pstep p s a <> None.
Proof.
  intros R Hun. pose proof (prun_inv l _ _ pinit_inv R) as I.
  destruct (Dead.no_deadlock c len WF (net s) (pi_net _ I) Hun) as [a [Hv Ha]].
  destruct (net_enabled p s a Hv Ha) as [E|(v & i & ->)]; [exists (PNet a); exact E|].
  (* the network could take the exit of task i of v: find the spawned task *)
  simpl in Hv, Ha. destruct (nth_error (NetA.fl (NetA.ns (net s) v)) i) as [[|]|] eqn:Hfl; try destruct (Ha eq_refl).
  assert (Hlen : i < length (NetA.fl (NetA.ns (net s) v))) by (apply nth_error_Some; congruence).
  (* absno n i < cN n, since eN + |fl| + sending = cN (Hcount) and i < |fl| (Hlen) *)
  pose proof (Inv.ni_total (proj1 (pi_net _ I) v Hv)) as Hcount.
  destruct (pi_reg _ I v (absno (NetA.ns (net s) v) i) Hv ltac:(unfold absno; lia)) as [k Hk].
  destruct (nth_same_length (pi_len _ I) Hk) as [t Ht].
  destruct (is_finished t) eqn:Fin.
  - (* finished: its Done can be seen *) exists (PExit v i k). cbn [pstep]. rewrite Hk, Ht, (proj2 (Nat.ltb_lt _ (NetA.nn (ncfg p))) Hv), !Nat.eqb_refl, Fin. simpl. rewrite Hfl. discriminate.
  - (* the task is still in the slot machine, which is never stuck on an unfinished task *)
    destruct (pi_sl _ I) as [A1 A2 A3].
    destruct (Slots7.C07_progress (sl s) A1 A2 A3) as [k' Hk'].
    { exists k, t. split; [exact Ht|]. intros F. apply finished_iff in F. congruence. }
    exists (PSlot k'). cbn [pstep]. destruct (Slots.step (sl s) k'); [discriminate|destruct (Hk' eq_refl)].
Qed.

Theorem product_slots_never_exceeded l s :
  prun p (pinit p) l = Some s -> Slots.tsum Slots.executing (Slots.tasks (sl s)) <= pcap p.
Proof. intros R. destruct (product_token_inv p l s R) as [I <-]. apply Slots.inv_bound, I. Qed.

(* the number of moves the task has still to make (Slots.move: MDeposit and MRelease once per core) *)
Definition trank (t : Slots.task) : nat :=
  match Slots.st t with
  | Slots.Idle => 2 * Slots.cores t + 5
  | Slots.WaitLock => 2 * Slots.cores t + 4
  | Slots.Depositing k => (Slots.cores t - k) + Slots.cores t + 3
  | Slots.Running => Slots.cores t + 2
  | Slots.Releasing k => k + 1
  | Slots.Finished => 0
  end.
(* more than the rank of a new task (2 * cores + 5, cores <= pcap by FIT): a hand-over lowers Phi and spawns one *)
Definition W : nat := 2 * pcap p + 6.
Definition pmeasure (s : pst) : nat := W * Term.Phi c len (net s) + Slots.tsum trank (Slots.tasks (sl s)).

Lemma move_rank {s i t q tk m} : Slots.move s i t q tk m ->
  (forall k, Slots.st t = Slots.Depositing k -> k <= Slots.cores t) -> trank (Slots.set_pc t q) < trank t.
Proof.
  intros M K. unfold trank. destruct M as [E|E M|k E N L|E|E|k n E T|E]; rewrite E; simpl; try lia.
  specialize (K k E). lia.
Qed.

Lemma slot_step_rank s k s' : Slots7.MInv s -> Slots.step s k = Some s' ->
  Slots.tsum trank (Slots.tasks s') < Slots.tsum trank (Slots.tasks s).
Proof.
  intros [_ [_ M3]] H. apply Slots.step_iff in H. destruct H as (t & q & tk & m & Hn & M & ->).
  pose proof (move_rank M (fun k0 => M3 k t k0 Hn)).
  pose proof (Slots.sum_upd trank (Slots.set_pc t q) Hn). simpl. lia.
Qed.

Theorem product_step_decreases s a s' : PInv s -> pstep p s a = Some s' -> pmeasure s' < pmeasure s.
Proof.
  intros I H. unfold pmeasure. apply pstep_pmove in H.
  pose proof (fun a0 n' => Term.step_decreases c len (net s) a0 n' (pi_net _ I)) as D.
  destruct H as [a n' N1 N2 B S|v n' B S|k x S|v i k t n' B Hk Ht F S]; simpl.
  - (* PMNet *) specialize (D _ _ B S). unfold W. nia.
  - (* PMHand: the new task weighs less than one unit of the network's measure *)
    specialize (D (NetA.AHand v) _ B S). rewrite Slots.sum_app. unfold trank at 2. simpl. pose proof (FIT v B) as Fit. unfold W. nia.
  - (* PMSlot *) pose proof (slot_step_rank _ _ _ (SlotsTop.ai_minv _ (pi_sl _ I)) S). lia.
  - (* PMExit *) specialize (D (NetA.AExit v i) _ B S). unfold W. nia.
Qed.

Lemma nodup_snoc {A} (l : list A) x : NoDup l -> ~ In x l -> NoDup (l ++ [x]).
Proof.
  intros N H. apply (NoDup_Add (Add_app x l [])). rewrite app_nil_r. auto.
Qed.

Lemma nodup_nth_inj {A} (l : list A) : NoDup l -> forall i j x, nth_error l i = Some x -> nth_error l j = Some x -> i = j.
Proof.
  intros N i j x Hi Hj. apply (proj1 (NoDup_nth_error l) N); [apply nth_error_Some|]; congruence.
Qed.

(* What product_all_done needs beside PInv: the registry names each created task once, and a spawned task is finished
   unless its process still has it in flight -- so a process that has ended has left none behind. *)
Record QInv (s : pst) : Prop := {
  q_bound : forall k v j, nth_error (tid s) k = Some (v, j) -> v < NetA.nn c /\ j < NetA.cN (NetA.ns (net s) v);
  q_nodup : NoDup (tid s);
  q_live : forall k v j t, nth_error (tid s) k = Some (v, j) -> nth_error (Slots.tasks (sl s)) k = Some t ->
           is_finished t = false -> live (NetA.ns (net s) v) j
}.

Lemma qinit_inv : QInv (pinit p).
Proof. constructor; [intros [|k] ? ? H; discriminate|constructor|intros [|k] ? ? ? H; discriminate]. Qed.

Lemma live_keep a s0 n' : NetA.step c s0 a = Some n' -> (forall v, a <> NetA.AHand v) -> (forall v i, a <> NetA.AExit v i) ->
  forall w j, live (NetA.ns s0 w) j -> live (NetA.ns n' w) j.
Proof. intros S _ H2 w j L. destruct (step_live S w j L) as [L'|[i [E _]]]; [exact L'|destruct (H2 w i E)]. Qed.

Lemma with_net_qinv {s a n'} : QInv s -> NetA.step c (net s) a = Some n' -> (forall v, a <> NetA.AHand v) ->
  (forall k w j t, nth_error (tid s) k = Some (w, j) -> nth_error (Slots.tasks (sl s)) k = Some t -> is_finished t = false ->
                   live (NetA.ns (net s) w) j -> live (NetA.ns n' w) j) ->
  QInv (with_net s n').
Proof.
  intros Q S Hne L. constructor; [|apply (q_nodup _ Q)|].
  - intros k w j Hk. rewrite (cN_same _ _ _ S Hne). apply (q_bound _ Q _ _ _ Hk).
  - intros k w j t Hk Ht Hfin. apply (L k w j t Hk Ht Hfin). apply (q_live _ Q _ _ _ _ Hk Ht Hfin).
Qed.

Lemma pstep_qinv s a s' : PInv s -> QInv s -> pstep p s a = Some s' -> QInv s'.
Proof.
  intros I Q H. apply pstep_pmove in H. destruct H as [a n' N1 N2 B S|v n' B S|k0 x S|v i k0 t0 n' B Hk0 Ht0 Fin0 S].
  - (* PMNet *) apply (with_net_qinv Q S N1). intros k w j t _ _ _. apply (live_keep a _ _ S N1 N2).
  - (* PMHand: a task is spawned: it gets the next number of its process, and is in flight *)
    constructor; simpl.
    + intros k w j Hk. destruct (Slots.nth_snoc Hk) as [Hk'|[_ [= -> ->]]].
      * destruct (q_bound _ Q _ _ _ Hk') as [Hw Hj]. split; [exact Hw|]. destruct (step_cN S w) as [[_ E]|[_ E]]; lia.
      * split; [exact B|]. destruct (step_cN S v) as [[N _]|[_ E]]; [destruct (N eq_refl)|lia].
    + apply nodup_snoc; [apply (q_nodup _ Q)|]. intros Hin. apply In_nth_error in Hin. destruct Hin as [k Hk].
      destruct (q_bound _ Q _ _ _ Hk) as [_ Hj]. lia.
    + intros k w j t Hk Ht Hfin. destruct (Slots.nth_snoc Hk) as [Hk'|[_ [= -> ->]]].
      * assert (Lk : k < length (tid s)) by (apply nth_error_Some; congruence).
        rewrite nth_error_app1 in Ht by (rewrite <- (pi_len _ I); exact Lk).
        destruct (step_live S w j (q_live _ Q _ _ _ _ Hk' Ht Hfin)) as [L|[i [[=] _]]]. exact L.
      * apply (hand_live c len). apply (pi_net _ I), B. exact S.
  - (* PMSlot: the task that moved was not finished before *)
    constructor; [apply (q_bound _ Q)|apply (q_nodup _ Q)|].
    intros k w j t Hk Ht Hfin. apply Slots.step_iff in S. destruct S as (t0 & q & tk & m & Ht0 & M & ->).
    destruct (Slots.nth_upd_inv Ht0 Ht) as [[-> _]|[_ Ht']]; [|exact (q_live _ Q k w j t Hk Ht' Hfin)].
    apply (q_live _ Q k0 w j t0 Hk Ht0). unfold is_finished. destruct M as [E|E _|? E _ _|E|E|? ? E _|E]; rewrite E; reflexivity.
  - (* PMExit: the only task that leaves is the one with the number of k0, and that one has finished *)
    apply (with_net_qinv Q S); [intros; discriminate|].
    intros k w j t Hk Ht Hfin L. destruct (step_live S w j L) as [L'|[i' [[= -> ->] ->]]]; [exact L'|].
    assert (Same : k = k0) by (eapply nodup_nth_inj; [apply (q_nodup _ Q)|exact Hk|exact Hk0]).
    congruence.
Qed.

Lemma prun_qinv l : forall s s', PInv s -> QInv s -> prun p s l = Some s' -> QInv s'.
Proof.
  intros s s' I Q H. apply (proj2 (A := PInv s')).
  apply (run_invariant (pstep p) (prun p)) with (P := fun x => PInv x /\ QInv x) (l := l) (s := s); auto.
  intros x a x' [I' Q'] E. split; [exact (pstep_inv _ _ _ I' E)|exact (pstep_qinv _ _ _ I' Q' E)].
Qed.

Lemma all_finished_no_tokens (l : list Slots.task) :
  (forall k t, nth_error l k = Some t -> is_finished t = true) -> Slots.tsum Slots.held l = 0.
Proof.
  induction l as [|t l IH]; intros H; simpl; auto.
  rewrite IH by (intros k t' Hk; apply (H (S k)); exact Hk).
  unfold Slots.held. rewrite (proj1 (finished_iff t) (H 0 t eq_refl)). reflexivity.
Qed.

Theorem product_all_done l s :
  prun p (pinit p) l = Some s ->
  (forall v, v < NetA.nn c -> NetA.rn (NetA.ns (net s) v) = NetA.RFin) ->
  (forall k t, nth_error (Slots.tasks (sl s)) k = Some t -> Slots.st t = Slots.Finished) /\ Slots.tokens (sl s) = 0.
Proof.
  intros R Hall. pose proof (prun_inv l _ _ pinit_inv R) as I. pose proof (prun_qinv l _ _ pinit_inv qinit_inv R) as Q.
  assert (F : forall k t, nth_error (Slots.tasks (sl s)) k = Some t -> is_finished t = true).
  { intros k t Ht. destruct (is_finished t) eqn:Fin; auto. exfalso.
    destruct (nth_same_length (eq_sym (pi_len _ I)) Ht) as [[v j] Hk].
    destruct (q_bound _ Q _ _ _ Hk) as [Hv _].
    pose proof (q_live _ Q _ _ _ _ Hk Ht Fin) as [i [_ Hi]].
    pose proof (pi_net _ I) as [HN _]. pose proof (HN v Hv) as NI.
    destruct (Inv.ni_fin NI (Hall v Hv)) as [_ [Hf _]]. rewrite Hf in Hi. destruct i; discriminate. }
  split.
  - intros k t Ht. apply finished_iff, (F k t Ht).
  - destruct (pi_sl _ I) as [[_ Hs] _ _]. rewrite <- Hs. apply all_finished_no_tokens. exact F.
Qed.

(* a run that cannot be extended has finished everything: with termination (product_step_decreases) this is "Run returns,
   and exactly when all work is done" for the product *)
Theorem product_maximal_run_completes l s :
  prun p (pinit p) l = Some s -> (forall a, pstep p s a = None) ->
  (forall v, v < NetA.nn c -> NetA.rn (NetA.ns (net s) v) = NetA.RFin) /\
  (forall k t, nth_error (Slots.tasks (sl s)) k = Some t -> Slots.st t = Slots.Finished) /\ Slots.tokens (sl s) = 0.
Proof.
  intros R Hmax.
  assert (A : forall v, v < NetA.nn c -> NetA.rn (NetA.ns (net s) v) = NetA.RFin).
  { intros v Hv. assert (U : NetA.rn (NetA.ns (net s) v) <> NetA.RFin -> False).
    { intros Hun. destruct (product_not_stuck l s R) as [a Ha].
      - (* its premise: a process is unfinished *) exists v. split; [exact Hv|exact Hun].
      - (* the action it gives cannot fire: Hmax *) exact (Ha (Hmax a)). }
    destruct (NetA.rn (NetA.ns (net s) v)); try reflexivity; destruct U; discriminate. }
  split; [exact A|]. apply (product_all_done l s R A).
Qed.

End Product.

(* non-vacuity: Top.dia with two slots, node 3 asking for both; the hypotheses of the section hold and a prefix of a run
   executes *)
From SP Require Top.
Definition pdia : pcfg := {| ncfg := Top.dia; pcap := 2; pcores := fun v => if Nat.eqb v 3 then 2 else 1 |}.
Lemma pdia_fit : forall v, v < NetA.nn (ncfg pdia) -> pcores pdia v <= pcap pdia.
Proof. intros v _. simpl. destruct (Nat.eqb v 3); lia. Qed.
Example product_example :
  Inv.wf (ncfg pdia) (fun _ => 2) /\
  match prun pdia (pinit pdia)
          [PNet (NetA.ABegin 0 []); PNet (NetA.AHand 0); PSlot 0; PSlot 0; PSlot 0; PSlot 0; PSlot 0; PSlot 0; PSlot 0;
           PExit 0 0 0; PNet (NetA.APop 0 [0; 1]); PNet (NetA.ASend 0); PNet (NetA.ASend 0); PNet (NetA.AEndSend 0)] with
  | Some s => Slots.tokens (sl s) = 0 /\ map Slots.st (Slots.tasks (sl s)) = [Slots.Finished] /\ tid s = [(0, 0)]
              /\ NetA.eN (NetA.ns (net s) 0) = 1
  | None => False
  end.
Proof. split; [exact Top.dia_wf|]. vm_compute. repeat split. Qed.
(* a task's Done is not seen before the slot machine has finished it *)
Example product_exit_waits :
  prun pdia (pinit pdia) [PNet (NetA.ABegin 0 []); PNet (NetA.AHand 0); PSlot 0; PSlot 0; PExit 0 0 0] = None.
Proof. vm_compute. reflexivity. Qed.
