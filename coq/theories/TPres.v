(* Every step of TaskFS keeps the invariant of TInv: a step of task t touches what the other tasks' clauses speak of in
   one place only, a final path t renames onto ([frame]), and t's own clauses are checked rule by rule ([step_tinv]). *)
From Coq Require Import List Lia PeanoNat.
Require Import Lib Result TaskFS TInv.

Section Pres.
Variable c : cfg.
Variable f0 : fs.
Hypothesis WF : wfc c.

Notation Inv := (Inv c f0).
Notation TInv := (TInv c f0).

Lemma opt_dec (a b : option content) : {a = b} + {a <> b}.
Proof. decide equality. apply Nat.eq_dec. Qed.

(* t is the acting task; it is not done (third premise), so no other task that has left Wait reads from it, and the pc
   of t may move without touching their t_deps *)
Lemma frame s s' t :
  Inv s -> t < nt c ->
  is_done (pcs s t) = false ->
  (forall t', t' <> t -> pcs s' t' = pcs s t' /\ tmp s' t' = tmp s t' /\ val s' t' = val s t') ->
  (forall x, fin s' x <> fin s x -> In x (tout (tk c t)) /\ exists todo, pcs s t = Ren (x :: todo)) ->
  TInv s' t ->
  Inv s'.
Proof.
  intros [HT HG] Ht Hnd Hoth Hfin Hnew. split.
  - intros t' Ht'. destruct (Nat.eq_dec t' t) as [->|Hne]; auto.
    destruct (Hoth t' Hne) as [Ep [Et Ev]]. destruct (HT t' Ht') as [Tfin Tabs Tsem Tens Tren Tdeps Tskip].
    assert (Hsame : forall x, In x (tout (tk c t')) -> fin s' x = fin s x).
    { intros x Hx. destruct (opt_dec (fin s' x) (fin s x)) as [E|E]; auto.
      destruct (Hfin x E) as [Hin _]. exfalso. eapply (w_disj c WF t' t x); auto. }
    constructor; rewrite ?Ep, ?Et, ?Ev.
    + (* t_fin *) intros x Hx. rewrite (Hsame x Hx). auto.
    + (* t_abs *) auto.
    + (* t_sem: an input of t' that changed is being renamed by its producer t, which t' has waited for *)
      intros Hp. rewrite <- (Tsem Hp). f_equal. apply map_ext_in. intros y Hy.
      destruct (opt_dec (fin s' y) (fin s y)) as [E|E]; auto.
      destruct (Hfin y E) as [Hin [todo Hr]]. exfalso.
      assert (Hlt : t < t').
      { apply Nat.nle_gt. intros L. eapply (w_topo c WF t' t y); auto. }
      assert (Hsh : shares (tout (tk c t)) (tin (tk c t')) = true) by (apply shares_true; eauto).
      assert (Hw : pcs s t' <> Wait) by (intros W; rewrite W in Hp; discriminate).
      specialize (Tdeps Hw t Hlt Hsh). rewrite Hr in Tdeps. discriminate.
    + (* t_ens *) auto.
    + (* t_ren *) auto.
    + (* t_deps *) intros Hw d Hd Hsh. destruct (Nat.eq_dec d t) as [->|Hdt].
      * (* t' would have waited for t to be done: Hnd *) specialize (Tdeps Hw t Hd Hsh). congruence.
      * destruct (Hoth d Hdt) as [Epd _]. rewrite Epd. auto.
    + (* t_skip *) auto.
  - intros x Hx. destruct (opt_dec (fin s' x) (fin s x)) as [E|E].
    + rewrite E. auto.
    + destruct (Hfin x E) as [Hin _]. exfalso. eapply Hx; eauto.
Qed.

Lemma lookup_some_in x os cs v : lookup x os cs = Some v -> In x os.
Proof.
  revert cs; induction os as [|o os IH]; intros [|c0 cs] H; simpl in *; try discriminate.
  destruct (Nat.eqb_spec x o); auto. right. eapply IH; eauto.
Qed.

Lemma write_tmp_out f os cs omit x : ~ In x os -> write_tmp f os cs omit x = f x.
Proof.
  revert f cs; induction os as [|o os IH]; intros f [|c0 cs] H; simpl; auto.
  rewrite IH by (intros H'; apply H; right; exact H').
  destruct (Nat.eqb_spec x o); auto. subst. exfalso. apply H. left; reflexivity.
Qed.

Lemma write_tmp_spec f os cs omit x : NoDup os -> length cs = length os -> In x os ->
  write_tmp f os cs omit x = if existsb (Nat.eqb x) omit then None else lookup x os cs.
Proof.
  revert f cs; induction os as [|o os IH]; intros f [|c0 cs] ND Hl Hin; simpl in *; try lia.
  inversion ND. destruct (Nat.eqb_spec x o) as [->|Hne].
  - rewrite write_tmp_out by assumption. now rewrite Nat.eqb_refl.
  - destruct Hin as [->|Hin]; [congruence|]. apply IH; auto.
Qed.

Lemma tinv_fail {s t} : TInv s t -> TInv (fail s) t.
Proof. intros []. constructor; assumption. Qed.

(* the seven fields: those whose premise is impossible for the new pc, and those that held before with the same
   data, are closed; what is left is what the step has to establish *)
Ltac fields := constructor; simpl; rewrite ?upd_same; try (intros; discriminate); auto.

Lemma step_tinv s p a s' : Inv s -> node_of a < nt c -> pcs s (node_of a) = p -> Step c s p a s' -> TInv s' (node_of a).
Proof.
  intros [HT HG] L P H. pose proof (HT _ L) as TI.
  (* the dependency field: established by AStart's guard, otherwise inherited, since no other task's pc moved *)
  assert (DP : forall d, d < node_of a -> shares (tout (tk c d)) (tin (tk c (node_of a))) = true -> is_done (pcs s' d) = true).
  { intros d Hd Sh. assert (N : d <> node_of a) by lia. rewrite (proj1 (Step_others H d N)).
    destruct H as [t D| | | | | | | | | | | | |]; simpl in *; try (apply (t_deps _ _ _ _ TI); [congruence|assumption..]).
    (* left: S_Start, where the task was at Wait; D is its guard *)
    unfold deps_done in D. rewrite forallb_forall in D.
    specialize (D d (proj2 (in_seq _ _ _) (conj (Nat.le_0_l d) Hd))). rewrite Sh in D. exact D. }
  pose proof TI as [Tfin Tabs Tsem Tens Tren Tdeps Tskip].
  destruct H as [t D|t D|t D|t A|t A|t|t x cnt|t omit cs S|t|t perm F Hp|t perm F|t x todo|t|t];
    simpl node_of in *; rewrite P in *.
  - (* AStart *) fields.
  - (* left-over temp dir *) exact (tinv_fail TI).
  - (* AChkTemp *) fields.
  - (* AChkOut, skip *) fields.
    (* t_skip *) intros _. rewrite <- A. symmetry. apply any_exists_agree. intros x Hx. apply Tfin; auto.
  - (* AChkOut, run *) fields.
    (* t_abs *) intros _ x Hx. rewrite <- (proj2 (Tfin x Hx)) by auto. exact (proj1 any_exists_false A x Hx).
  - (* AMkTemp *) fields.
  - (* AWrite leaves pcs alone: the pc of t is read off P, where [fields] reads it off upd_same *)
    constructor; simpl; rewrite ?P; auto; discriminate.
  - (* ACmdOk *) fields.
    + (* t_fin *) intros x Hx. split; [intros []|]. intros _. apply Tfin; auto.
    + (* t_ens *) intros _ x v Hx Htv. rewrite write_tmp_spec in Htv; auto.
      * destruct (existsb (Nat.eqb x) omit); [discriminate|assumption].
      * apply (w_nodup c WF); auto.
      * eapply (w_len c WF); eauto.
  - (* ACmdFail *) exact (tinv_fail TI).
  - (* AEnsure *)
    destruct (is_perm_in Hp (w_nodup c WF t L)) as [Hin NDp].
    fields.
    + (* t_fin: every declared output is on the list *) intros x Hx. split.
      * intros Hc. exfalso. apply Hc. apply Hin; assumption.
      * intros _. apply Tfin; auto.
    + (* t_ren *) intros todo E. injection E as <-. split; auto. intros x Hx. apply Hin in Hx. split; auto.
      rewrite forallb_forall in F. specialize (F x Hx). destruct (tmp s t x) as [v|] eqn:Tv; [|discriminate].
      exists v. split; auto.
  - (* a declared output is missing *) exact (tinv_fail TI).
  - (* ARename *)
    destruct (Tren _ eq_refl) as [ND Hall]. apply NoDup_cons_iff in ND. destruct ND as [Hnin ND].
    destruct (Hall x (or_introl eq_refl)) as [Hxo [v [Htv Hlv]]].
    fields.
    + (* t_fin *) intros y Hy. unfold upd. destruct (Nat.eqb_spec y x) as [->|Hne].
      * split; [|intros Hc; exfalso; apply Hc; exact Hnin]. intros _. rewrite Htv, Hlv. split; congruence.
      * destruct (Tfin y Hy) as [b1 b2]. split; intros Hc.
        -- apply b1. intros [E|E]; [congruence|exact (Hc E)].
        -- apply b2. intros Hc'. apply Hc. intros E. apply Hc'. right; exact E.
    + (* t_sem: x is no input of its own task *) intros _. rewrite <- Tsem by reflexivity. f_equal. apply map_ext_in. intros y Hy.
      apply upd_other. intros ->. eapply (w_topo c WF t t x); auto.
    + (* t_ren *) intros todo' E. injection E as <-. split; auto. intros y Hy.
      destruct (Hall y (or_intror Hy)) as [Hyo [w [Htw Hlw]]].
      split; auto. exists w. split; auto.
      rewrite upd_other; [exact Htw|]. intros ->. exact (Hnin Hy).
  - (* AEndRen *) fields.
    (* t_fin *) intros x Hx. destruct (Tfin x Hx) as [b1 b2]. split; [|intros Hc; exfalso; apply Hc; exact I]. intros _. apply b1. intros [].
  - (* ARmTemp *) fields.
Qed.

Theorem step_inv s a s' : Inv s -> step c s a = Some s' -> Inv s'.
Proof.
  intros HI H. apply step_Step in H as (L & H).
  apply frame with (s := s) (t := node_of a); auto.
  - exact (Step_not_done H).
  - intros u N. destruct (Step_others H u N) as (Ep & Et & _ & Ev). exact (conj Ep (conj Et Ev)).
  - intros x D. destruct (Step_fin H x D) as [todo P]. split; [|eauto].
    apply (t_ren _ _ _ _ (proj1 HI _ L) _ P). left; reflexivity.
  - exact (step_tinv _ _ _ _ HI L eq_refl H).
Qed.

End Pres.
Print Assumptions step_inv.
