(* C16 -- Only fully wired workflows run; RunTo executes exactly the upstream closure. *)
From Coq Require Import List Bool String.
Import ListNotations.
From SP Require Import Skel Gen Expected ExpectedCones Wiring Wiring2 Ready.
From SP Require SinkDrain.

(* T1: runProcs reconnects dead-end out-ports to the sink, then fails unless readyToRun (Ready of every process, which asks
   every port), then starts the processes; RunToProcs hands it the targets and what it merged for them; collectUpstreamProcs
   visits the remotes of every in-port and parameter in-port, recursively; From / To set both ends ready *)
Theorem C16_code_conforms :
  skel_eqb skel_Workflow_runProcs exp_Workflow_runProcs
  && skel_eqb skel_Workflow_readyToRun exp_Workflow_readyToRun
  && skel_eqb skel_Workflow_reconnectDeadEndConnections exp_Workflow_reconnectDeadEndConnections
  && skel_eqb skel_Workflow_RunToProcs exp_Workflow_RunToProcs
  && skel_eqb skel_Workflow_Run exp_Workflow_Run
  && skel_eqb skel_upstreamProcsForProc exp_upstreamProcsForProc
  && skel_eqb skel_collectUpstreamProcs exp_collectUpstreamProcs
  && skel_eqb skel_BaseProcess_Ready exp_BaseProcess_Ready
  && skel_eqb skel_InPort_From exp_InPort_From && skel_eqb skel_OutPort_To exp_OutPort_To
  && skel_eqb skel_OutPort_Disconnect exp_OutPort_Disconnect && skel_eqb skel_InPort_Disconnect exp_InPort_Disconnect = true.
Proof. vm_compute. reflexivity. Qed.

(* the readiness check (which fails the program) comes after the reconnection of dangling out-ports and before any process is started *)
Theorem C16_refuses_before_start :
  match exp_Workflow_runProcs with
  | SCall r :: SIf c [SFail] [] :: SFunc f _ :: SRange _ _ :: _ =>
      String.eqb r "wf.reconnectDeadEndConnections" && String.eqb c "!wf.readyToRun(procs)" && String.eqb f "startProc"
  | _ => false
  end = true.
Proof. vm_compute. reflexivity. Qed.

(* the readiness check covers every process that is started, the process that replaces the sink as driver included
   (readyToRun tests it explicitly: it may have been deleted from the map the check ranges over) *)
Theorem C16_driver_is_checked :
  existsb (fun s => match s with
                    | SIf c [SReturn r] [] => String.eqb c "wf.driver != nil && wf.driver != WorkflowProcess(wf.sink) && !wf.driver.Ready()" && String.eqb r "false"
                    | _ => false end) exp_Workflow_readyToRun = true.
Proof. vm_compute. reflexivity. Qed.

(* the set of processes whose wiring is checked covers the set of processes that are started, whether the map is wf.procs
   itself (Run, aliased) or a fresh one (RunTo) *)
Theorem C16_started_are_checked : forall (noout : nat -> bool) (aliased : bool) (sel : list nat) (p : nat),
  In p (started noout aliased sel) -> In p (checked noout aliased sel).
Proof. intros noout aliased sel p. exact (Ready.started_are_checked noout (fun _ => true) aliased sel p). Qed.

(* an unconnected port of any process that would be started makes the run start nothing *)
Theorem C16_unready_refused : forall (noout ready : nat -> bool) (aliased : bool) (sel : list nat) (p : nat),
  In p (started noout aliased sel) -> ready p = false -> run_starts noout ready (checked noout aliased sel) aliased sel = [].
Proof. exact Ready.unready_refused. Qed.

(* a selection all of whose processes are fully wired is not refused: the run starts what [started] lists *)
Theorem C16_ready_runs : forall (noout ready : nat -> bool) (aliased : bool) (sel : list nat),
  (forall p, In p sel -> ready p = true) -> run_starts noout ready (checked noout aliased sel) aliased sel = started noout aliased sel.
Proof. exact Ready.ready_runs. Qed.

(* before the repair: source 0 feeds process 1, which has no out-ports and an unconnected in-port; under Run the driver is
   missing from the checked set, the check passes and both are started; with the driver clause nothing is started *)
Theorem C16_driver_unchecked_refuted_before_repair :
  let noout := fun p => Nat.eqb p 1 in
  let ready := fun p => negb (Nat.eqb p 1) in
  run_starts noout ready (checked_before noout true [0; 1]) true [0; 1] = [0; 1] /\
  run_starts noout ready (checked noout true [0; 1]) true [0; 1] = [].
Proof. exact Ready.driver_unchecked_before_repair. Qed.

(* the ready flag of a port means exactly "has a remote port", after any sequence of connect / disconnect operations *)
Theorem C16_ready_flag : forall ops : list wop,
  let w := fold_left apply_op ops Wiring2.empty in OutInv w /\ InInv w.
Proof. exact Wiring2.ready_flag_invariant. Qed.

(* out-ports that nobody (selected) consumes are drained automatically: after the reconnection step the port is ready and
   has a consumer -- the sink if nobody else -- and the flags are still exact *)
Theorem C16_dangling_drained : forall (sel : nat -> bool) (w : wiring) (o : nat), OutInv w -> InInv w ->
  let w' := reconnect_port sel w o in oready w' o = true /\ orem w' o <> [] /\ OutInv w' /\ InInv w'.
Proof. exact Wiring2.dangling_drained. Qed.

(* the recursive upstream collection is exactly the transitive closure of the producer relation, on every acyclic graph,
   and fuel = number of processes suffices *)
Theorem C16_closure : forall (preds : nat -> list nat), (forall v u, In u (preds v) -> u < v) ->
  forall fuel v, v <= fuel -> forall u, In u (up preds fuel v) <-> reach preds u v.
Proof. exact Wiring.up_is_closure. Qed.

(* RunTo: the set of started processes is the targets plus everything upstream of a target -- nothing else *)
Theorem C16_runto_exact : forall (preds : nat -> list nat), (forall v u, In u (preds v) -> u < v) ->
  forall fuel targets, (forall t, In t targets -> t <= fuel) ->
  forall p, In p (run_set preds fuel targets) <-> exists t, In t targets /\ (p = t \/ reach preds p t).
Proof. exact Wiring.C16_run_set. Qed.

(* every producer of a started process is started: started processes keep all their upstream connections *)
Theorem C16_closed_upward : forall (preds : nat -> list nat), (forall v u, In u (preds v) -> u < v) ->
  forall fuel targets p u, (forall t, In t targets -> t <= fuel) ->
  In p (run_set preds fuel targets) -> In u (preds p) -> In u (run_set preds fuel targets).
Proof. exact Wiring.C16_closed_upward. Qed.

(* a diamond 0 -> {1,2} -> 3 plus an unrelated 4 *)
Definition ex_preds (v : nat) : list nat := match v with 1 => [0] | 2 => [0] | 3 => [1; 2] | _ => [] end.
(* non-vacuity on that diamond: RunTo(1) selects {1,0}; RunTo(3) selects {3,1,2,0}, listing 0 once per path *)
Theorem C16_example : run_set ex_preds 5 [1] = [1; 0] /\ run_set ex_preds 5 [3] = [3; 1; 0; 2; 0].
Proof. split; reflexivity. Qed.

(* T1, call cones (DESIGN 11.26, ExpectedCones.v): every function of scipipe reachable from the functions above is one the
   models were compared with. *)
Theorem C16_cone_conforms :
  strs_eqb cone_Workflow_runProcs exp_cone_Workflow_runProcs
  && strs_eqb cone_Workflow_readyToRun exp_cone_Workflow_readyToRun
  && strs_eqb cone_Workflow_reconnectDeadEndConnections exp_cone_Workflow_reconnectDeadEndConnections
  && strs_eqb cone_Workflow_RunToProcs exp_cone_Workflow_RunToProcs
  && strs_eqb cone_Workflow_Run exp_cone_Workflow_Run
  && strs_eqb cone_upstreamProcsForProc exp_cone_upstreamProcsForProc
  && strs_eqb cone_collectUpstreamProcs exp_cone_collectUpstreamProcs
  && strs_eqb cone_BaseProcess_Ready exp_cone_BaseProcess_Ready
  && strs_eqb cone_InPort_From exp_cone_InPort_From
  && strs_eqb cone_OutPort_To exp_cone_OutPort_To
  && strs_eqb cone_OutPort_Disconnect exp_cone_OutPort_Disconnect
  && strs_eqb cone_InPort_Disconnect exp_cone_InPort_Disconnect = true.
Proof. vm_compute. reflexivity. Qed.

(* the sink drains the out-ports nobody consumes (dangling, or cut off by RunTo).  SinkDrain: Sink.Run reads its file in-port
   and its parameter in-port at the same time; an upstream that feeds both sends in an order of its own and closes only after
   its last send.  Every state short of the end can move, whatever the order and the buffer sizes (the buffer bounds and
   `closed -> plan = []` go unused) ... *)
Theorem C16_sink_concurrent_progress : forall capf capp s, 1 <= capf -> 1 <= capp ->
  SinkDrain.qf s <= capf -> SinkDrain.qp s <= capp -> (SinkDrain.closed s = true -> SinkDrain.plan s = []) ->
  SinkDrain.final s = false -> SinkDrain.enabled capf capp true s = true.
Proof. intros capf capp s Cf Cp _ _ _. exact (SinkDrain.concurrent_progress capf capp s Cf Cp). Qed.

(* ... and every step uses up the measure and keeps `closed -> plan = []`: nothing is sent after the close *)
Theorem C16_sink_terminates : forall capf capp s a s', (SinkDrain.closed s = true -> SinkDrain.plan s = []) ->
  SinkDrain.step capf capp true s a = Some s' ->
  SinkDrain.measure s' < SinkDrain.measure s /\ (SinkDrain.closed s' = true -> SinkDrain.plan s' = []).
Proof. exact (fun capf capp => SinkDrain.step_decreases capf capp true). Qed.

(* non-vacuity: buffers of size 1, an upstream that sends two parameters, a file and a parameter: the run shown drains both
   ports and ends in the final state *)
Theorem C16_sink_nonvacuous :
  exists s, SinkDrain.run 1 1 true (SinkDrain.init [false; false; true; false])
              [SinkDrain.Send; SinkDrain.RecvP; SinkDrain.Send; SinkDrain.RecvP; SinkDrain.Send; SinkDrain.Send; SinkDrain.RecvF; SinkDrain.RecvP; SinkDrain.Close] = Some s
            /\ SinkDrain.final s = true.
Proof. exact SinkDrain.concurrent_example. Qed.

(* ... a sink that read the file port to its end before turning to the parameter port would be stuck, for every buffer size, under
   an upstream that sends one more parameter value than the buffer holds before its first file *)
Theorem C16_sink_in_turn_refuted : forall capp, exists l s,
  SinkDrain.run 1 capp false (SinkDrain.init (repeat false (S capp) ++ [true])) l = Some s
  /\ SinkDrain.enabled 1 capp false s = false /\ SinkDrain.final s = false.
Proof. exact (SinkDrain.in_turn_stuck 1). Qed.

Print Assumptions C16_code_conforms.
Print Assumptions C16_refuses_before_start.
Print Assumptions C16_ready_flag.
Print Assumptions C16_dangling_drained.
Print Assumptions C16_closure.
Print Assumptions C16_runto_exact.
Print Assumptions C16_closed_upward.
Print Assumptions C16_example.
Print Assumptions C16_driver_is_checked.
Print Assumptions C16_started_are_checked.
Print Assumptions C16_unready_refused.
Print Assumptions C16_ready_runs.
Print Assumptions C16_driver_unchecked_refuted_before_repair.
Print Assumptions C16_cone_conforms.
Print Assumptions C16_sink_concurrent_progress.
Print Assumptions C16_sink_terminates.
Print Assumptions C16_sink_nonvacuous.
Print Assumptions C16_sink_in_turn_refuted.
