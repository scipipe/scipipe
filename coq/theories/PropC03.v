(* C03 -- Restart after a crash converges to the uninterrupted result.  Model: TaskFS + the sequential reference `result`. *)
From Coq Require Import List Bool.
Import ListNotations.
From SP Require Import Skel Gen Expected ExpectedCones Result TaskFS TInv Glue Cor TaskTop History.

(* T1: Execute fails first of all on a left-over temp dir, then skips if a non-streaming output exists at its final path;
   FinalizePaths moves each non-streaming output to its final path by one os.Rename *)
Theorem C03_code_conforms :
  skel_eqb skel_Task_Execute exp_Task_Execute
  && skel_eqb skel_FinalizePaths exp_FinalizePaths
  && skel_eqb skel_Task_tempDirsExist exp_Task_tempDirsExist
  && skel_eqb skel_Task_anyOutputsExist exp_Task_anyOutputsExist
  && skel_eqb skel_Process_Run exp_Process_Run = true.
Proof. vm_compute. reflexivity. Qed.

(* a completed run, under any schedule, equals the sequential reference at every declared output *)
Theorem C03_complete_is_result : forall (c : cfg) (f0 : fs) (left0 : nat -> bool), wfc c ->
  forall fR, pre c f0 (nt c) = Some fR ->
  forall s, reachable c f0 left0 s -> (forall t, t < nt c -> is_done (pcs s t) = true) ->
  forall t x, t < nt c -> In x (tout (tk c t)) -> fin s x = fR x.
Proof. exact TaskTop.complete_is_result. Qed.

(* crash anywhere (any reachable state in which no task is strictly between two of its renames), remove the temp dirs,
   run again (the sequential reference `result`): the run completes with exactly the files of the uninterrupted run *)
Theorem C03_converges : forall (c : cfg) (f0 : fs) (left0 : nat -> bool), wfc c ->
  forall fR, pre c f0 (nt c) = Some fR ->
  forall s, reachable c f0 left0 s -> finalize_atomic c s ->
  exists fR', result (tl c (nt c)) (fin s) = Some fR' /\ forall x, fR' x = fR x.
Proof. exact TaskTop.crash_restart_converges. Qed.

(* every history: any finite sequence of runs, each started on what the previous one left (with or without left-over temp
   dirs) and killed at any instant at which no task is strictly between two of its renames -- nested crashes during
   recovery included -- leaves a store from which the next run computes the uninterrupted result ... *)
Theorem C03_any_history : forall (c : cfg), wfc c -> forall (f0 fR : fs), pre c f0 (nt c) = Some fR ->
  forall f, hist c f0 f -> exists fR', result (tl c (nt c)) f = Some fR' /\ forall x, fR' x = fR x.
Proof. exact History.any_history_converges. Qed.

(* ... and every concurrent execution of that run that gets all its tasks done holds the uninterrupted run's content at
   every declared output *)
Theorem C03_any_history_run : forall (c : cfg), wfc c -> forall (f0 fR : fs), pre c f0 (nt c) = Some fR ->
  forall f left s, hist c f0 f -> reachable c f left s -> (forall t, t < nt c -> is_done (pcs s t) = true) ->
  forall t x, t < nt c -> In x (tout (tk c t)) -> fin s x = fR x.
Proof. exact History.any_history_run_completes. Qed.

(* tasks whose outputs were final at the crash are not executed again (C02 applied to the crash state's files) *)
Theorem C03_no_reexecution : forall (c : cfg) (f1 : fs) (left1 : nat -> bool), wfc c ->
  forall s t x cnt, reachable c f1 left1 s -> t < nt c -> In x (tout (tk c t)) -> f1 x = Some cnt ->
  past_chk (pcs s t) = false /\ fin s x = Some cnt.
Proof.
  intros c f1 left1 WF s t x cnt R Ht Hx Hf. split.
  - exact (Cor.C02_skip c f1 left1 WF s t x cnt R Ht Hx Hf).
  - exact (Cor.C02_untouched c f1 left1 WF s t x cnt R Ht Hx Hf).
Qed.

(* left-over temp dirs are not adopted: the task that meets its own temp dir exits the program, and what was finalized
   before is still correct (the C01 invariant holds in every reachable state, whatever `left0` is) *)
Theorem C03_refuses_leftovers : forall (c : cfg) (s : st) (t : nat),
  exited s = false -> t < nt c -> pcs s t = ChkTemp -> tdir s t = true ->
  exists s', step c s (AChkTemp t) = Some s' /\ exited s' = true /\ fin s' = fin s.
Proof.
  intros c s t He Ht P D. exists (fail s). split; [|split; reflexivity].
  apply PeanoNat.Nat.ltb_lt in Ht. unfold step. simpl. rewrite He, Ht, P, D. reflexivity.
Qed.

(* the guard is necessary (finding D2): a two-output task killed between its two renames is skipped by the re-run and its
   second output never appears *)
Theorem C03_midfinalize_refuted :
  exists fR fR', result [t2] f_empty = Some fR /\ result [t2] f_half = Some fR' /\ fR 1 = Some 8 /\ fR' 1 = None.
Proof. exact Result.C03_midfinalize_refuted. Qed.

(* T1, call cones (DESIGN 11.26, ExpectedCones.v): every function of scipipe reachable from the functions above is one the
   models were compared with. *)
Theorem C03_cone_conforms :
  strs_eqb cone_Task_Execute exp_cone_Task_Execute
  && strs_eqb cone_FinalizePaths exp_cone_FinalizePaths
  && strs_eqb cone_Task_tempDirsExist exp_cone_Task_tempDirsExist
  && strs_eqb cone_Task_anyOutputsExist exp_cone_Task_anyOutputsExist
  && strs_eqb cone_Process_Run exp_cone_Process_Run = true.
Proof. vm_compute. reflexivity. Qed.

Print Assumptions C03_code_conforms.
Print Assumptions C03_complete_is_result.
Print Assumptions C03_converges.
Print Assumptions C03_any_history.
Print Assumptions C03_any_history_run.
Print Assumptions C03_no_reexecution.
Print Assumptions C03_refuses_leftovers.
Print Assumptions C03_midfinalize_refuted.
Print Assumptions C03_cone_conforms.
