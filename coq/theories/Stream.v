(* A streaming (FIFO) producer/consumer pair under task slots (C17). *)
From Coq Require Import List Arith Bool.
From SP Require Lib.
Import ListNotations.

Definition byte := nat.

Inductive ppc := PWaitSlot | POpening | PWriting (rest : list byte) | PExited | PAudited | PReleased | PDone.
(* CSkipOpen / CDraining: the consumer task found its outputs on disk, is skipped, and drains the pipe (drainStreamingInputs).
   CAudited linked: the consumer has written its audit record; linked says whether the producer's record was on the shared IP
   by then (paudit at CAudit), so whether the Upstream entry names the producer: the two tasks race (C17_audit_race_refuted) *)
Inductive cpc := CNone | CWaitSlot | COpening | CReading | CExited | CAudited (linked : bool) | CFinal | CReleased | CDone
               | CSkipOpen | CDraining.

(* tokens: the slots taken.  Each task takes one and gives it back, and taking it is one step: no mutex and no CoresPerTask
   as in Slots, whose subject they are *)
Record st := {
  fifo : bool;               (* the named pipe exists in the directory *)
  wclosed : bool;            (* writer end closed *)
  buf : list byte;           (* bytes in the pipe *)
  sent : list byte;          (* ghost: everything written *)
  got : list byte;           (* everything the consumer read *)
  pp : ppc; cp : cpc;
  tokens : nat;
  paudit : bool;             (* producer's audit record has been set on the shared IP *)
  outfile : option (list byte) (* consumer's finalised output *)
}.

(* skip: the consumer's output exists before the run (a re-run of a completed workflow) and holds [old] *)
Record cfg := { payload : list byte; pipecap : nat; slots : nat; skip : bool; old : list byte }.

Definition init (c : cfg) : st :=
  {| fifo := true (* created by Process.Run before the task is spawned *); wclosed := false; buf := []; sent := []; got := [];
     pp := PWaitSlot; cp := CNone; tokens := 0; paudit := false; outfile := if skip c then Some (old c) else None |}.

Inductive act :=
| AForward        (* the IP reaches the consumer, whose task is created *)
| PAcquire | CAcquire
| AOpenBoth       (* open(O_WRONLY) and open(O_RDONLY) return together *)
| PWrite | PExit | PSetAudit | PRelease | PDoneA
| CRead | CEof | CAudit | CFinalize | CRelease | CDoneA
| ARemoveFifo.

Definition step (c : cfg) (s : st) (a : act) : option st :=
  match a with
  | AForward => match cp s with CNone => Some {| fifo := fifo s; wclosed := wclosed s; buf := buf s; sent := sent s; got := got s; pp := pp s; cp := (if skip c then CSkipOpen else CWaitSlot); tokens := tokens s; paudit := paudit s; outfile := outfile s |} | _ => None end
  | PAcquire => match pp s with PWaitSlot => if Nat.ltb (tokens s) (slots c) then Some {| fifo := fifo s; wclosed := wclosed s; buf := buf s; sent := sent s; got := got s; pp := POpening; cp := cp s; tokens := S (tokens s); paudit := paudit s; outfile := outfile s |} else None | _ => None end
  | CAcquire => match cp s with CWaitSlot => if Nat.ltb (tokens s) (slots c) then Some {| fifo := fifo s; wclosed := wclosed s; buf := buf s; sent := sent s; got := got s; pp := pp s; cp := COpening; tokens := S (tokens s); paudit := paudit s; outfile := outfile s |} else None | _ => None end
  | AOpenBoth => match pp s, cp s with
                 | POpening, COpening => Some {| fifo := fifo s; wclosed := false; buf := buf s; sent := sent s; got := got s; pp := PWriting (payload c); cp := CReading; tokens := tokens s; paudit := paudit s; outfile := outfile s |}
                 | POpening, CSkipOpen => Some {| fifo := fifo s; wclosed := false; buf := buf s; sent := sent s; got := got s; pp := PWriting (payload c); cp := CDraining; tokens := tokens s; paudit := paudit s; outfile := outfile s |}
                 | _, _ => None end
  | PWrite => match pp s with PWriting (b :: r) => if Nat.ltb (length (buf s)) (pipecap c) then Some {| fifo := fifo s; wclosed := wclosed s; buf := buf s ++ [b]; sent := sent s ++ [b]; got := got s; pp := PWriting r; cp := cp s; tokens := tokens s; paudit := paudit s; outfile := outfile s |} else None | _ => None end
  | PExit => match pp s with PWriting [] => Some {| fifo := fifo s; wclosed := true; buf := buf s; sent := sent s; got := got s; pp := PExited; cp := cp s; tokens := tokens s; paudit := paudit s; outfile := outfile s |} | _ => None end
  | PSetAudit => match pp s with PExited => Some {| fifo := fifo s; wclosed := wclosed s; buf := buf s; sent := sent s; got := got s; pp := PAudited; cp := cp s; tokens := tokens s; paudit := true; outfile := outfile s |} | _ => None end
  | PRelease => match pp s with PAudited => Some {| fifo := fifo s; wclosed := wclosed s; buf := buf s; sent := sent s; got := got s; pp := PReleased; cp := cp s; tokens := pred (tokens s); paudit := paudit s; outfile := outfile s |} | _ => None end
  | PDoneA => match pp s with PReleased => Some {| fifo := fifo s; wclosed := wclosed s; buf := buf s; sent := sent s; got := got s; pp := PDone; cp := cp s; tokens := tokens s; paudit := paudit s; outfile := outfile s |} | _ => None end
  | CRead => match cp s, buf s with
             | CReading, b :: r | CDraining, b :: r => Some {| fifo := fifo s; wclosed := wclosed s; buf := r; sent := sent s; got := got s ++ [b]; pp := pp s; cp := cp s; tokens := tokens s; paudit := paudit s; outfile := outfile s |}
             | _, _ => None end
  | CEof => match cp s, buf s with
            | CReading, [] => if wclosed s then Some {| fifo := fifo s; wclosed := wclosed s; buf := []; sent := sent s; got := got s; pp := pp s; cp := CExited; tokens := tokens s; paudit := paudit s; outfile := outfile s |} else None
            | CDraining, [] => if wclosed s then Some {| fifo := fifo s; wclosed := wclosed s; buf := []; sent := sent s; got := got s; pp := pp s; cp := CDone; tokens := tokens s; paudit := paudit s; outfile := outfile s |} else None   (* io.Copy returns at EOF; Close; Done *)
            | _, _ => None end
  | CAudit => match cp s with CExited => Some {| fifo := fifo s; wclosed := wclosed s; buf := buf s; sent := sent s; got := got s; pp := pp s; cp := CAudited (paudit s); tokens := tokens s; paudit := paudit s; outfile := outfile s |} | _ => None end
  | CFinalize => match cp s with CAudited l => Some {| fifo := fifo s; wclosed := wclosed s; buf := buf s; sent := sent s; got := got s; pp := pp s; cp := CFinal; tokens := tokens s; paudit := paudit s; outfile := Some (got s) |} | _ => None end
  | CRelease => match cp s with CFinal => Some {| fifo := fifo s; wclosed := wclosed s; buf := buf s; sent := sent s; got := got s; pp := pp s; cp := CReleased; tokens := pred (tokens s); paudit := paudit s; outfile := outfile s |} | _ => None end
  | CDoneA => match cp s with CReleased => Some {| fifo := fifo s; wclosed := wclosed s; buf := buf s; sent := sent s; got := got s; pp := pp s; cp := CDone; tokens := tokens s; paudit := paudit s; outfile := outfile s |} | _ => None end
  | ARemoveFifo => match pp s with PDone => if fifo s then Some {| fifo := false; wclosed := wclosed s; buf := buf s; sent := sent s; got := got s; pp := pp s; cp := cp s; tokens := tokens s; paudit := paudit s; outfile := outfile s |} else None | _ => None end
  end.

Fixpoint run (c : cfg) (s : st) (l : list act) : option st :=
  match l with [] => Some s | a :: r => match step c s a with Some s' => run c s' r | None => None end end.

Definition prest (p : ppc) (c : cfg) : list byte :=
  match p with PWaitSlot | POpening => payload c | PWriting r => r | _ => [] end.

Definition c_after_eof (q : cpc) : bool := match q with CExited | CAudited _ | CFinal | CReleased | CDone => true | _ => false end.
Definition c_finalized (q : cpc) : bool := match q with CFinal | CReleased | CDone => true | _ => false end.
Definition c_skipping (q : cpc) : bool := match q with CNone | CSkipOpen | CDraining | CDone => true | _ => false end.
Definition c_running (q : cpc) : bool := match q with CSkipOpen | CDraining => false | _ => true end.
Definition p_unopened (p : ppc) : bool := match p with PWaitSlot | POpening => true | _ => false end.
Definition p_writing (p : ppc) : bool := match p with PWaitSlot | POpening | PWriting _ => true | _ => false end.
Definition c_unopened (q : cpc) : bool := match q with CNone | CWaitSlot | COpening | CSkipOpen => true | _ => false end.

(* data invariant: nothing lost, nothing duplicated, order kept.  The clauses, as the proofs number them: 1 written and still
   to write make the payload; 2 read and in the pipe make what was written; 3 after EOF: pipe empty, all written, producer
   through; 4 the output file, by mode; 5 before the producer opens: nothing written, consumer not open; 6 writer end closed:
   producer through *)
Definition DInv (c : cfg) (s : st) : Prop :=
  sent s ++ prest (pp s) c = payload c /\ got s ++ buf s = sent s /\
  (c_after_eof (cp s) = true -> buf s = [] /\ prest (pp s) c = [] /\ p_writing (pp s) = false) /\
  (if skip c then outfile s = Some (old c) /\ c_skipping (cp s) = true
   else c_running (cp s) = true /\ outfile s = if c_finalized (cp s) then Some (got s) else None) /\
  (p_unopened (pp s) = true -> sent s = [] /\ c_unopened (cp s) = true) /\
  (wclosed s = true -> p_writing (pp s) = false).

Lemma init_dinv c : DInv c (init c).
Proof. unfold DInv, init; simpl. repeat split; try discriminate. destruct (skip c); auto. Qed.

(* [step] as a relation on states written field by field ([Build_st f w b se g p q t pa o]); T, L are the two bounds.  Every
   invariant of the pair (here, in StreamLive, and lifted to n pairs in StreamN) does its case analysis on it. *)
Inductive Step (c : cfg) : st -> act -> st -> Prop :=
| SForward f w b se g p t pa o :
    Step c (Build_st f w b se g p CNone t pa o) AForward
           (Build_st f w b se g p (if skip c then CSkipOpen else CWaitSlot) t pa o)
| SPAcquire f w b se g q t pa o (T : t < slots c) :
    Step c (Build_st f w b se g PWaitSlot q t pa o) PAcquire
           (Build_st f w b se g POpening q (S t) pa o)
| SCAcquire f w b se g p t pa o (T : t < slots c) :
    Step c (Build_st f w b se g p CWaitSlot t pa o) CAcquire
           (Build_st f w b se g p COpening (S t) pa o)
| SOpen f w b se g t pa o :
    Step c (Build_st f w b se g POpening COpening t pa o) AOpenBoth
           (Build_st f false b se g (PWriting (payload c)) CReading t pa o)
| SOpenSkip f w b se g t pa o :
    Step c (Build_st f w b se g POpening CSkipOpen t pa o) AOpenBoth
           (Build_st f false b se g (PWriting (payload c)) CDraining t pa o)
| SPWrite f w b se g x r q t pa o (L : length b < pipecap c) :
    Step c (Build_st f w b se g (PWriting (x :: r)) q t pa o) PWrite
           (Build_st f w (b ++ [x]) (se ++ [x]) g (PWriting r) q t pa o)
| SPExit f w b se g q t pa o :
    Step c (Build_st f w b se g (PWriting []) q t pa o) PExit
           (Build_st f true b se g PExited q t pa o)
| SPSetAudit f w b se g q t pa o :
    Step c (Build_st f w b se g PExited q t pa o) PSetAudit
           (Build_st f w b se g PAudited q t true o)
| SPRelease f w b se g q t pa o :
    Step c (Build_st f w b se g PAudited q t pa o) PRelease
           (Build_st f w b se g PReleased q (pred t) pa o)
| SPDone f w b se g q t pa o :
    Step c (Build_st f w b se g PReleased q t pa o) PDoneA
           (Build_st f w b se g PDone q t pa o)
| SCRead f w x r se g p q t pa o (C : q = CReading \/ q = CDraining) :
    Step c (Build_st f w (x :: r) se g p q t pa o) CRead
           (Build_st f w r se (g ++ [x]) p q t pa o)
| SCEof f se g p t pa o :
    Step c (Build_st f true [] se g p CReading t pa o) CEof
           (Build_st f true [] se g p CExited t pa o)
| SCEofSkip f se g p t pa o :
    Step c (Build_st f true [] se g p CDraining t pa o) CEof
           (Build_st f true [] se g p CDone t pa o)
| SCAudit f w b se g p t pa o :
    Step c (Build_st f w b se g p CExited t pa o) CAudit
           (Build_st f w b se g p (CAudited pa) t pa o)
| SCFinalize f w b se g p l t pa o :
    Step c (Build_st f w b se g p (CAudited l) t pa o) CFinalize
           (Build_st f w b se g p CFinal t pa (Some g))
| SCRelease f w b se g p t pa o :
    Step c (Build_st f w b se g p CFinal t pa o) CRelease
           (Build_st f w b se g p CReleased (pred t) pa o)
| SCDone f w b se g p t pa o :
    Step c (Build_st f w b se g p CReleased t pa o) CDoneA
           (Build_st f w b se g p CDone t pa o)
| SRemoveFifo w b se g q t pa o :
    Step c (Build_st true w b se g PDone q t pa o) ARemoveFifo
           (Build_st false w b se g PDone q t pa o).

Lemma step_Step c s a s' : step c s a = Some s' -> Step c s a s'.
Proof.
  destruct s as [f w b se g p q t pa o], a; simpl.
  12-15: (* CAudit, CFinalize, CRelease, CDoneA look at cp alone *) destruct q; intros [= <-]; constructor.
  7-9: (* PSetAudit, PRelease, PDoneA look at pp alone *) destruct p; intros [= <-]; constructor.
  - (* AForward *) destruct q; intros [= <-]. constructor.
  - (* PAcquire *) destruct p; try discriminate. destruct (Nat.ltb_spec t (slots c)); intros [= <-]. now constructor.
  - (* CAcquire *) destruct q; try discriminate. destruct (Nat.ltb_spec t (slots c)); intros [= <-]. now constructor.
  - (* AOpenBoth *) destruct p; try discriminate. destruct q; intros [= <-]; constructor.
  - (* PWrite *) destruct p as [| |[|x r]| | | |]; try discriminate.
    destruct (Nat.ltb_spec (length b) (pipecap c)); intros [= <-]. now constructor.
  - (* PExit *) destruct p as [| |[|x r]| | | |]; intros [= <-]. constructor.
  - (* CRead *) destruct q; try discriminate; destruct b; intros [= <-]; constructor; auto.
  - (* CEof *) destruct q; try discriminate; destruct b; try discriminate; destruct w; intros [= <-]; constructor.
  - (* ARemoveFifo *) destruct p; try discriminate. destruct f; intros [= <-]. constructor.
Qed.

Lemma prest_written p c : p_writing p = false -> prest p c = [].
Proof. now destruct p. Qed.

Lemma step_dinv c s a s' : DInv c s -> step c s a = Some s' -> DInv c s'.
Proof.
  intros (H1 & H2 & H3 & H4 & H5 & H6) H. apply step_Step in H. destruct H; unfold DInv; simpl in *.
  (* rule by rule, clause by clause.  A clause the step does not touch is its hypothesis, or has a premise that is false of the
     new program counter; the rest of the bookkeeping (clauses 3 to 6) follows from the hypotheses by cases on the mode.  Left
     are, in the order of the rules: the two steps that move a byte, PWrite (clauses 1, 2) and CRead (2, 4), and CEof in either
     mode (3). *)
  all: refine (conj _ (conj _ (conj _ (conj _ (conj _ _))))); try assumption; try discriminate.
  all: try (destruct (skip c); simpl in *; firstorder congruence).
  - (* PWrite, clause 1 *) rewrite <- app_assoc. exact H1.
  - (* PWrite, clause 2 *) rewrite app_assoc, H2. reflexivity.
  - (* CRead, clause 2 *) rewrite <- H2, <- app_assoc. reflexivity.
  - (* CRead, clause 4 *) destruct C as [-> | ->]; destruct (skip c); simpl in *; firstorder congruence.
  - (* CEof, clause 3: the writer end is closed, so nothing is left to write *)
    intros _. rewrite (prest_written _ c (H6 eq_refl)), (H6 eq_refl). auto.
  - (* CEof when draining, clause 3: likewise *) intros _. rewrite (prest_written _ c (H6 eq_refl)), (H6 eq_refl). auto.
Qed.

Lemma reach_dinv {c l s} : run c (init c) l = Some s -> DInv c s.
Proof. apply (Lib.run_invariant (step c) (run c)); [reflexivity|reflexivity|exact (step_dinv c)|exact (init_dinv c)]. Qed.

Lemma dinv_done {c s} : DInv c s -> cp s = CDone -> got s = payload c /\ buf s = [] /\ (skip c = false -> outfile s = Some (payload c)).
Proof.
  intros (H1 & H2 & H3 & H4 & _) C. rewrite C in *. destruct (H3 eq_refl) as (Hb & Hr & _).
  rewrite Hb, app_nil_r in H2. rewrite Hr, app_nil_r in H1. repeat split; try congruence.
  intros K. rewrite K in H4. destruct H4 as [_ ->]. simpl. congruence.
Qed.

Lemma dinv_skipped {c s} : DInv c s -> skip c = true -> outfile s = Some (old c) /\ c_skipping (cp s) = true.
Proof. intros (_ & _ & _ & H4 & _) K. now rewrite K in H4. Qed.

Theorem C17_bytes c l s : skip c = false -> run c (init c) l = Some s -> cp s = CDone -> outfile s = Some (payload c).
Proof. intros K R C. now apply (dinv_done (reach_dinv R) C). Qed.

Theorem rerun_untouched c l s : skip c = true -> run c (init c) l = Some s -> outfile s = Some (old c).
Proof. intros K R. exact (proj1 (dinv_skipped (reach_dinv R) K)). Qed.

Theorem rerun_drained c l s : skip c = true -> run c (init c) l = Some s -> cp s = CDone -> got s = payload c /\ buf s = [].
Proof. intros _ R C. destruct (dinv_done (reach_dinv R) C) as (G & B & _). now split. Qed.

Definition all_acts := [AForward; PAcquire; CAcquire; AOpenBoth; PWrite; PExit; PSetAudit; PRelease; PDoneA;
                        CRead; CEof; CAudit; CFinalize; CRelease; CDoneA; ARemoveFifo].
Definition stuck c s := forallb (fun a => match step c s a with None => true | Some _ => false end) all_acts.

Definition cp_done (s : st) := match cp s with CDone => true | _ => false end.
Definition pp_done (s : st) := match pp s with PDone => true | _ => false end.
Definition linked (s : st) := match cp s with CAudited b => Some b | _ => None end.
Definition after c s0 l (f : st -> bool) := match run c s0 l with Some s => f s | None => false end.

Definition c1 := {| payload := [1;2;3]; pipecap := 2; slots := 1; skip := false; old := [] |}.
Example C17_one_slot_refuted :
  after c1 (init c1) [AForward; PAcquire] (fun s => stuck c1 s && negb (cp_done s)) = true.
Proof. vm_compute. reflexivity. Qed.

(* payload longer than the pipe *)
Definition c2 := {| payload := [1;2;3]; pipecap := 2; slots := 2; skip := false; old := [] |}.
Example C17_run_ok :
  after c2 (init c2) [AForward; PAcquire; CAcquire; AOpenBoth; PWrite; PWrite; CRead; PWrite; PExit; CRead; CRead; CEof;
                      PSetAudit; CAudit; CFinalize; CRelease; CDoneA; PRelease; PDoneA; ARemoveFifo]
        (fun s => cp_done s && pp_done s && negb (fifo s) && Nat.eqb (tokens s) 0) = true.
Proof. vm_compute. reflexivity. Qed.

Definition c3 := {| payload := [1]; pipecap := 2; slots := 2; skip := false; old := [] |}.
Example C17_audit_race_refuted :
  (match run c3 (init c3) [AForward; PAcquire; CAcquire; AOpenBoth; PWrite; PExit; CRead; CEof; PSetAudit; CAudit] with Some s => linked s | None => None end) = Some true /\
  (match run c3 (init c3) [AForward; PAcquire; CAcquire; AOpenBoth; PWrite; PExit; CRead; CEof; CAudit; PSetAudit] with Some s => linked s | None => None end) = Some false.
Proof. split; vm_compute; reflexivity. Qed.

(* a state of the code before the skip branch drained the pipe (defect D9, repaired in the source); not reachable in this
   machine, whose skipped consumer drains *)
Definition s_rerun := {| fifo := true; wclosed := false; buf := []; sent := []; got := []; pp := PWaitSlot; cp := CDone;
                         tokens := 0; paudit := false; outfile := Some [1] |}.
Example C17_rerun_refuted :
  after c3 s_rerun [PAcquire] (fun s => stuck c3 s && negb (pp_done s)) = true.
Proof. vm_compute. reflexivity. Qed.
