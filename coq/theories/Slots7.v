(* C07 on the slot machine of Slots.v: the mutex discipline, progress (some task can move while one is unfinished) and work
   conservation (acquisition alone brings every waiting task to execution when they fit together). *)
From Coq Require Import List Arith Lia.
Import ListNotations.
From SP Require Import Lib.
Require Import Slots.

Definition contender (t : task) : bool :=
  match st t with Idle | WaitLock | Depositing _ => true | _ => false end.

Definition is_dep (t : task) : bool := match st t with Depositing _ => true | _ => false end.

(* the mutex discipline: a depositing task is the one the mutex names; the mutex names a depositing task; a task has
   deposited no more than its cores *)
Definition MInv (s : state) : Prop :=
  (forall i t, nth_error (tasks s) i = Some t -> is_dep t = true -> mutex s = Some i) /\
  (forall i, mutex s = Some i -> exists t, nth_error (tasks s) i = Some t /\ is_dep t = true) /\
  (forall i t k, nth_error (tasks s) i = Some t -> st t = Depositing k -> k <= cores t).

Lemma move_mutex {s i t q tk m} : MInv s -> nth_error (tasks s) i = Some t -> move s i t q tk m ->
  (is_dep (set_pc t q) = true <-> m = Some i) /\ (forall k, q = Depositing k -> k <= cores t) /\
  forall j, j <> i -> (m = Some j <-> mutex s = Some j).
Proof.
  intros [M1 [M2 M3]] Hn M.
  assert (D : is_dep t = true <-> mutex s = Some i).
  { split; [exact (M1 i t Hn)|]. intros Hm. destruct (M2 i Hm) as [u [Hu Du]]. congruence. }
  unfold is_dep in *. destruct M as [E|E Free|k E N L|E|E|k n E T|E]; rewrite E in D; simpl.
  (* MWait, MExec, MRelease, MDone leave the mutex alone, and the task not depositing, as it was *)
  all: try (split; [exact D|split; [discriminate|reflexivity]]).
  - (* MLock takes the free mutex *)
    rewrite Free. split; [tauto|split; [intros k [= <-]; lia|]]. intros j Hj. split; congruence.
  - (* MDeposit leaves the mutex alone, and the task depositing *)
    split; [exact D|split; [|reflexivity]]. intros k' [= <-]. specialize (M3 i t k Hn E). lia.
  - (* MUnlock frees the mutex, which named the mover *)
    assert (Mine : mutex s = Some i) by tauto.
    split; [split; congruence|split; [discriminate|]]. intros j Hj. split; congruence.
Qed.

Lemma step_minv {s i s'} : MInv s -> step s i = Some s' -> MInv s'.
Proof.
  intros HM H. apply step_iff in H. destruct H as (t & q & tk & m & Hn & M & ->).
  destruct (move_mutex HM Hn M) as (A & K & B). destruct HM as [M1 [M2 M3]]. split; [|split]; simpl.
  - intros j u Hu Du. destruct (nth_upd_inv Hn Hu) as [[-> ->]|[Hne Hu']]; [apply A, Du|].
    apply B; [exact Hne|exact (M1 j u Hu' Du)].
  - intros j Hj. destruct (Nat.eq_dec j i) as [->|Hne].
    + exists (set_pc t q). split; [exact (nth_upd_same Hn)|apply A, Hj].
    + rewrite nth_upd_other by auto. apply M2, B; assumption.
  - intros j u k Hu. destruct (nth_upd_inv Hn Hu) as [[-> ->]|[_ Hu']]; [apply K|apply (M3 j u k Hu')].
Qed.

Lemma tsum_pos_ex l : 0 < tsum held l -> exists i u, nth_error l i = Some u /\ 0 < held u.
Proof.
  induction l as [|b l IH]; simpl; intros H; [lia|].
  destruct (Nat.eq_dec (held b) 0) as [E|E].
  - destruct IH as [i [u [Hi Hu]]]; [lia|]. exists (S i), u. auto.
  - exists 0, b. split; auto. lia.
Qed.

Lemma tsum_other l j t : nth_error l j = Some t -> held t < tsum held l ->
  exists i u, i <> j /\ nth_error l i = Some u /\ 0 < held u.
Proof.
  (* with t replaced by a copy that holds nothing, the sum is still positive *)
  intros Hj Hlt. pose proof (sum_upd held (set_pc t Idle) Hj) as E. change (held (set_pc t Idle)) with 0 in E.
  destruct (tsum_pos_ex (upd l j (set_pc t Idle))) as (i & u & Hi & Hu); [lia|].
  destruct (nth_upd_inv Hj Hi) as [[-> ->]|[N Hi']]; [inversion Hu|eauto].
Qed.

(* while a task waits, some waiting task can move, unless it holds the mutex, wants more tokens and finds none free *)
Lemma acquisition {s i t} : MInv s -> nth_error (tasks s) i = Some t -> contender t = true ->
  exists j u, nth_error (tasks s) j = Some u /\ contender u = true /\
    (step s j <> None \/ exists k, st u = Depositing k /\ k < cores u /\ cap s <= tokens s).
Proof.
  intros [M1 [M2 M3]] Hn C. destruct (mutex s) as [j|] eqn:Hm.
  - (* the mutex is held: its holder is depositing, and moves unless it wants more and the channel is full *)
    destruct (M2 j eq_refl) as [u [Hj Hd]]. exists j, u. unfold contender. unfold is_dep in Hd.
    destruct (st u) as [| |k| | |] eqn:Su; try discriminate. split; [exact Hj|split; [reflexivity|]].
    destruct (Nat.eq_dec k (cores u)) as [->|Ek]; [left; exact (can_step Hj (MUnlock Su))|].
    destruct (Nat.lt_ge_cases (tokens s) (cap s)) as [L|L]; [left; exact (can_step Hj (MDeposit k Su Ek L))|].
    right. exists k. pose proof (M3 j u k Hj Su). split; [reflexivity|lia].
  - (* the mutex is free: nobody is depositing, and t moves *)
    exists i, t. split; [exact Hn|split; [exact C|left]]. pose proof (M1 i t Hn) as D. unfold contender in C. unfold is_dep in D.
    destruct (st t) eqn:St; try discriminate.
    + (* Idle *) exact (can_step Hn (MWait St)).
    + (* WaitLock *) exact (can_step Hn (MLock St Hm)).
    + (* Depositing *) specialize (D eq_refl). congruence.
Qed.

Lemma worker_moves {s i t} : Inv s -> nth_error (tasks s) i = Some t -> contender t = false -> st t <> Finished ->
  step s i <> None.
Proof.
  intros [_ Hsum] Hn C Hnf. unfold contender in C. destruct (st t) as [| |k| |[|k]|] eqn:St; try discriminate.
  - exact (can_step Hn (MExec St)).
  - exact (can_step Hn (MDone St)).
  - (* a releasing task holds tokens, so there are some *)
    pose proof (nth_le_sum held Hn) as H. unfold held in H at 1. rewrite St in H.
    destruct (tokens s) as [|n] eqn:Tk; [lia|]. exact (can_step Hn (MRelease k n St Tk)).
  - congruence.
Qed.

Theorem C07_progress s :
  Inv s -> MInv s -> (forall i t, nth_error (tasks s) i = Some t -> cores t <= cap s) ->
  (exists i t, nth_error (tasks s) i = Some t /\ st t <> Finished) ->
  exists i, step s i <> None.
Proof.
  intros HI HM Hfit [i [t [Hn Hnf]]].
  destruct (contender t) eqn:C; [|exists i; exact (worker_moves HI Hn C Hnf)].
  destruct (acquisition HM Hn C) as (j & u & Hj & _ & [Hs|(k & Hu & Hk & Full)]); [exists j; exact Hs|].
  (* the channel is full, and the depositing task holds fewer tokens than there are: another task holds some; the mutex
     names one task only, so that one is past acquisition, and moves *)
  destruct (tsum_other _ j u Hj) as (i' & w & Hne & Hi' & Hw).
  { destruct HI as [_ ->]. unfold held. rewrite Hu. specialize (Hfit j u Hj). lia. }
  exists i'. unfold held in Hw. apply (worker_moves HI Hi').
  - unfold contender. destruct (st w) as [| |kw| | |] eqn:Sw; try lia.
    destruct HM as [M1 _]. pose proof (M1 i' w Hi') as A. pose proof (M1 j u Hj) as B. unfold is_dep in A, B.
    rewrite Sw in A. rewrite Hu in B. specialize (A eq_refl). specialize (B eq_refl). congruence.
  - intros F. rewrite F in Hw. lia.
Qed.
Print Assumptions C07_progress.

Definition want (t : task) : nat := if contender t then cores t - held t else 0.
Definition acq (s : state) (i : nat) : bool :=
  match nth_error (tasks s) i with Some t => contender t | None => false end.

Definition Fits (s : state) : Prop := tsum want (tasks s) + tokens s <= cap s.

Lemma want_of t : want t =
  match st t with Idle | WaitLock => cores t | Depositing k => cores t - k | _ => 0 end.
Proof. unfold want, contender, held. destruct (st t); lia. Qed.

(* why Fits is preserved: a task acquires what it wanted, or gives tokens back *)
Lemma move_want {s i t q tk m} : move s i t q tk m -> (forall k, st t = Depositing k -> k <= cores t) ->
  want (set_pc t q) + tk <= want t + tokens s.
Proof.
  intros M K. rewrite !want_of. destruct M as [E|E M|k E N L|E|E|k n E T|E]; rewrite E; simpl; try lia.
  specialize (K k E). lia.
Qed.

Lemma step_fits {s i s'} : MInv s -> Fits s -> step s i = Some s' -> Fits s'.
Proof.
  unfold Fits. intros [_ [_ M3]] HF H. apply step_iff in H. destruct H as (t & q & tk & m & Hn & M & ->).
  pose proof (move_want M (fun k => M3 i t k Hn)). pose proof (sum_upd want (set_pc t q) Hn).
  simpl. lia.
Qed.

Fixpoint run_acq (s : state) (sched : list nat) : option state :=
  match sched with
  | [] => Some s
  | i :: r => if acq s i then match step s i with Some s' => run_acq s' r | None => None end else None
  end.

Lemma run_acq_run sched : forall s s', run_acq s sched = Some s' -> run s sched = Some s'.
Proof.
  induction sched as [|i r IH]; simpl; intros s s' H; [exact H|].
  destruct (acq s i); [|discriminate]. destruct (step s i); [exact (IH _ _ H)|discriminate].
Qed.

Lemma run_fits sched : forall s s', MInv s /\ Fits s -> run s sched = Some s' -> MInv s' /\ Fits s'.
Proof.
  apply (run_invariant step run); [reflexivity|reflexivity|]. intros s i s' [M F] H.
  split; [exact (step_minv M H)|exact (step_fits M F H)].
Qed.

(* C07 work conservation: if everything that is waiting fits into the free slots, then in every state reached from there
   acquisition can only stop when no task is waiting: neither a release nor a command exit is ever needed *)
Theorem work_conserving_from s sched s' :
  MInv s -> Fits s -> run s sched = Some s' ->
  (forall i, acq s' i = true -> step s' i = None) ->
  forall i t, nth_error (tasks s') i = Some t -> contender t = false.
Proof.
  intros HM HF Hrun Hq. destruct (run_fits sched s s' (conj HM HF) Hrun) as [HM' HF'].
  intros i t Hn. destruct (contender t) eqn:C; [exfalso|reflexivity].
  destruct (acquisition HM' Hn C) as (j & u & Hj & Cu & [Hs|(k & Hu & Hk & Full)]).
  { apply Hs, Hq. unfold acq. rewrite Hj. exact Cu. }
  (* the channel is not full, since what all the waiting tasks want fits *)
  pose proof (nth_le_sum want Hj) as Hw. rewrite want_of, Hu in Hw. unfold Fits in HF'. lia.
Qed.

Theorem C07_work_conserving s sched s' :
  Inv s -> MInv s -> Fits s -> run_acq s sched = Some s' ->
  (forall i, acq s' i = true -> step s' i = None) ->
  forall i t, nth_error (tasks s') i = Some t -> contender t = false.
Proof. intros _ HM HF H. exact (work_conserving_from s sched s' HM HF (run_acq_run _ _ _ H)). Qed.
Print Assumptions C07_work_conserving.
