(* C05 -- Run returns exactly when all work is done: no deadlock, no early return. *)
From Coq Require Import List Lia Bool.
Import ListNotations.
From SP Require Import Skel Gen Expected ExpectedCones NetA Inv Top Ghost Term Early NetTop.
From SP Require Result TaskFS TInv Slots NetSlots FanIn StreamReg.

(* T1: runProcs starts every selected process except the driver, runs the driver in the caller and waits for all;
   Process.Run closes its out-ports on return; the select loop and the port protocol are the modelled ones *)
Theorem C05_code_conforms :
  skel_eqb skel_Workflow_runProcs exp_Workflow_runProcs
  && skel_eqb skel_Workflow_Run exp_Workflow_Run
  && skel_eqb skel_Workflow_reconnectDeadEndConnections exp_Workflow_reconnectDeadEndConnections
  && skel_eqb skel_Sink_Run exp_Sink_Run
  && skel_eqb skel_Process_Run exp_Process_Run
  && skel_eqb skel_Process_createTasks exp_Process_createTasks
  && skel_eqb skel_BaseProcess_CloseOutPorts exp_BaseProcess_CloseOutPorts
  && skel_eqb skel_OutPort_Close exp_OutPort_Close
  && skel_eqb skel_InPort_CloseConnection exp_InPort_CloseConnection
  && skel_eqb skel_Task_Execute exp_Task_Execute
  && skel_eqb skel_Workflow_IncConcurrentTasks exp_Workflow_IncConcurrentTasks
  && skel_eqb skel_Workflow_DecConcurrentTasks exp_Workflow_DecConcurrentTasks
  && skel_eqb skel_FinalizePaths exp_FinalizePaths = true.
Proof. vm_compute. reflexivity. Qed.

(* deadlock freedom: no reachable state of a merge-free, balanced, acyclic network with capacity >= 1 is stuck
   while some process is unfinished -- for every stream length relative to the buffer size, every schedule *)
Theorem C05_no_deadlock : forall (c : cfg) (len : nat -> nat), wf c len ->
  forall sched s, sched_ok c sched -> run c (init c) sched = Some s ->
  (exists v, v < nn c /\ rn (ns s v) <> RFin) ->
  exists a, node_of a < nn c /\ step c s a <> None.
Proof. exact Top.reachable_not_stuck. Qed.

(* termination: every action strictly decreases a natural-number potential, so every execution is finite *)
Theorem C05_terminates : forall (c : cfg) (len : nat -> nat) (s : st) (a : act) (s' : st),
  Inv c len s -> node_of a < nn c -> step c s a = Some s' -> Phi c len s' < Phi c len s.
Proof. exact Term.step_decreases. Qed.

(* no early return: a finished process has no task in flight and all direct producers of its files are finished.
   Read along the edges, informally: when the sink (the driver, which consumes from every leaf) has finished, every
   process upstream of it that executes tasks has.  The statement is about file edges: the feeder of a parameter port
   may still be about to close its port when its consumer has finished ([C05_param_feeder_may_lag]); such a feeder
   executes no task, and the repaired runProcs waits for every started process before Run returns (C05_code_conforms,
   the WaitGroup in the skeleton) *)
Theorem C05_not_early : forall (c : cfg) (len : nat -> nat) (gc : gcfg),
  wf c len -> (forall v L, slen c v = Some L -> length (sitems gc v) = L) ->
  forall sched s g, sched_ok c sched -> grun c gc (init c) ginit sched = Some (s, g) ->
  forall v, v < nn c -> rn (ns s v) = RFin ->
  fl (ns s v) = [] /\ (forall y, In y (ins c v) -> epar c y = false -> rn (ns s (esrc c y)) = RFin).
Proof.
  intros c len gc WF SL sched s g Hok Hrun v Hv HF.
  destruct (reachable_inv WF Hok Hrun) as [I1 [I2 _]].
  exact (finished_upward c len s v I1 I2 Hv HF).
Qed.

(* when all have finished, every task was created, executed and its output emitted and received *)
Theorem C05_all_done_at_return : forall (c : cfg) (len : nat -> nat) (gc : gcfg),
  wf c len -> (forall v L, slen c v = Some L -> length (sitems gc v) = L) ->
  forall sched s g, sched_ok c sched -> grun c gc (init c) ginit sched = Some (s, g) -> final c s ->
  (forall v, v < nn c -> cN (ns s v) = len v /\ eN (ns s v) = len v /\ fl (ns s v) = []) /\
  (forall e, e < E c -> snt (es s e) = len (esrc c e) /\ rcv (es s e) = snt (es s e)).
Proof.
  intros c len gc WF SL sched s g Hok Hrun HF.
  destruct (reachable_inv WF Hok Hrun) as [I _].
  exact (final_complete c len WF s I HF).
Qed.

(* when Run returns no temp directory of the run is left: in the task / file-store machine, for every task DAG and every
   schedule of a run that did not start on left-overs, a task that is done (executed or skipped) has no temp directory
   and nothing in it *)
Theorem C05_no_leftovers : forall (c : TaskFS.cfg) (f0 : Result.fs) (left0 : nat -> bool) (l : list TaskFS.act) (s : TaskFS.st),
  (forall t, left0 t = false) -> TaskFS.run c (TaskFS.init c f0 left0) l = Some s ->
  forall t, TaskFS.is_done (TaskFS.pcs s t) = true -> TaskFS.tdir s t = false /\ forall x, TaskFS.tmp s t x = None.
Proof. exact TInv.no_leftovers. Qed.

(* process 2 with a file port (edge 0, from source 0) and a parameter port (edge 1, from feeder 1), empty streams *)
Definition lagcfg : cfg := {| nn := 3; edges := [(0,2);(1,2)]; slen := fun v => if Nat.ltb v 2 then Some 0 else None;
                              cap := 1; epar := fun e => Nat.eqb e 1 |}.
(* C05_not_early stops at file edges for a reason: in a well-formed network ([lagcfg]) a process that finds its file port
   closed leaves the loop without reading its parameter port and finishes while the feeder of that port has not *)
Theorem C05_param_feeder_may_lag :
  wf lagcfg (fun _ => 0) /\
  exists sched s, run lagcfg (init lagcfg) sched = Some s /\ rn (ns s 2) = RFin /\ rn (ns s 1) <> RFin.
Proof.
  split.
  - constructor; simpl.
    + (* wf_topo *) intros e He. unfold E in He; simpl in He. unfold esrc, edst. destruct e as [|[|e]]; simpl; lia.
    + (* wf_cap *) lia.
    + (* wf_src *) intros v L. destruct v as [|[|v]]; intros H; inversion H; split; reflexivity.
    + (* wf_proc *) intros v Hv. destruct v as [|[|[|v]]]; try discriminate; lia.
    + (* wf_bal *) reflexivity.
  - exists [ABegin 0 []; AFin 0; ABegin 2 [0; 1]; ARecv 2; AEndRound 2; AFin 2]. eexists. split; [vm_compute; reflexivity|].
    split; [reflexivity|discriminate].
Qed.

(* non-vacuity of the network theorems above: [wf] holds of the diamond 0 -> {1,2} -> 3 with a 2-item source and
   capacity 1 *)
Theorem C05_nonvacuous : wf dia (fun _ => 2).
Proof. exact dia_wf. Qed.

(* "whatever the stream lengths relative to buffer sizes and slot counts": the network composed with the task-slot
   machine (NetSlots).  A task handed over by createTasks is spawned into the slot machine, where it competes with every
   other task of the workflow for the maxConcurrentTasks tokens; the process sees its Done only once the slot machine has
   finished it.  For every network as above, every slot count, every cores-per-task assignment that the start-up check
   admits (cores <= slots), every schedule of the product: *)

(* no reachable state is stuck while some process is unfinished *)
Theorem C05_with_slots_no_deadlock : forall (p : NetSlots.pcfg) (len : nat -> nat),
  Inv.wf (NetSlots.ncfg p) len -> (forall v, v < nn (NetSlots.ncfg p) -> NetSlots.pcores p v <= NetSlots.pcap p) ->
  forall (l : list NetSlots.pact) (s : NetSlots.pst),
  NetSlots.prun p (NetSlots.pinit p) l = Some s ->
  (exists v, v < nn (NetSlots.ncfg p) /\ rn (ns (NetSlots.net s) v) <> RFin) ->
  exists a, NetSlots.pstep p s a <> None.
Proof. exact NetSlots.product_not_stuck. Qed.

(* every step strictly decreases a natural-number measure: every execution of the product is finite *)
Theorem C05_with_slots_terminates : forall (p : NetSlots.pcfg) (len : nat -> nat),
  Inv.wf (NetSlots.ncfg p) len -> (forall v, v < nn (NetSlots.ncfg p) -> NetSlots.pcores p v <= NetSlots.pcap p) ->
  forall (l : list NetSlots.pact) (s : NetSlots.pst) (a : NetSlots.pact) (s' : NetSlots.pst),
  NetSlots.prun p (NetSlots.pinit p) l = Some s -> NetSlots.pstep p s a = Some s' ->
  NetSlots.pmeasure p len s' < NetSlots.pmeasure p len s.
Proof.
  intros p len WF FIT l s a s' R H.
  apply (NetSlots.product_step_decreases p len FIT s a s'); [|exact H].
  apply (NetSlots.prun_inv p len WF FIT l (NetSlots.pinit p) s); [|exact R].
  apply (NetSlots.pinit_inv p len).
Qed.

(* when every process has finished, every task that was spawned has gone through the slot machine to its end and all
   tokens are back: Run does not return with a task still holding or waiting for a slot *)
Theorem C05_with_slots_all_done : forall (p : NetSlots.pcfg) (len : nat -> nat),
  Inv.wf (NetSlots.ncfg p) len -> (forall v, v < nn (NetSlots.ncfg p) -> NetSlots.pcores p v <= NetSlots.pcap p) ->
  forall (l : list NetSlots.pact) (s : NetSlots.pst),
  NetSlots.prun p (NetSlots.pinit p) l = Some s ->
  (forall v, v < nn (NetSlots.ncfg p) -> rn (ns (NetSlots.net s) v) = RFin) ->
  (forall k t, nth_error (Slots.tasks (NetSlots.sl s)) k = Some t -> Slots.st t = Slots.Finished)
  /\ Slots.tokens (NetSlots.sl s) = 0.
Proof. exact NetSlots.product_all_done. Qed.

(* a run of the product that cannot be extended has finished everything -- with C05_with_slots_terminates: every execution
   is finite and ends exactly when all work is done *)
Theorem C05_with_slots_maximal : forall (p : NetSlots.pcfg) (len : nat -> nat),
  Inv.wf (NetSlots.ncfg p) len -> (forall v, v < nn (NetSlots.ncfg p) -> NetSlots.pcores p v <= NetSlots.pcap p) ->
  forall (l : list NetSlots.pact) (s : NetSlots.pst),
  NetSlots.prun p (NetSlots.pinit p) l = Some s -> (forall a, NetSlots.pstep p s a = None) ->
  (forall v, v < nn (NetSlots.ncfg p) -> rn (ns (NetSlots.net s) v) = RFin) /\
  (forall k t, nth_error (Slots.tasks (NetSlots.sl s)) k = Some t -> Slots.st t = Slots.Finished) /\
  Slots.tokens (NetSlots.sl s) = 0.
Proof. exact NetSlots.product_maximal_run_completes. Qed.

(* non-vacuity of the product: the diamond with two slots and a process that asks for both *)
Theorem C05_with_slots_nonvacuous :
  Inv.wf (NetSlots.ncfg NetSlots.pdia) (fun _ => 2)
  /\ (forall v, v < nn (NetSlots.ncfg NetSlots.pdia) -> NetSlots.pcores NetSlots.pdia v <= NetSlots.pcap NetSlots.pdia).
Proof. split; [exact Top.dia_wf|exact NetSlots.pdia_fit]. Qed.

(* fan-in into the in-ports of one process (FanIn.v).  The network theorems above are about merge-free graphs.  With
   several producers feeding the same in-ports, the sequential blocking sends of the producers and the sequential blocking
   receives of the consumer can wait for each other.  For every number of producers and channels, every choice of send and
   receive orders (a new one in every round, as Go's map iteration gives), every number of rounds and every schedule: if
   the buffer has room for one item per producer, no reachable state is stuck before everything has been sent and
   received ... *)
Theorem C05_fanin_no_deadlock : forall (m : nat) (ps : list (list nat * nat)) (co : list nat) (cp : nat) (l : list FanIn.act) (s : FanIn.st),
  FanIn.wf_in m ps co -> length ps <= cp -> FanIn.run (FanIn.init m ps co cp) l = Some s -> ~ FanIn.finished m s ->
  exists a, FanIn.step s a <> None.
Proof. exact FanIn.fanin_no_deadlock. Qed.

(* ... every step strictly decreases the number of sends and receives still to come, so every execution is finite ... *)
Theorem C05_fanin_terminates : forall (m : nat) (s : FanIn.st) (a : FanIn.act) (s' : FanIn.st),
  FanIn.Inv m s -> FanIn.step s a = Some s' -> FanIn.measure m s' < FanIn.measure m s.
Proof. exact FanIn.fanin_step_decreases. Qed.

(* ... a run that cannot be extended has sent and received everything ... *)
Theorem C05_fanin_maximal : forall (m : nat) (ps : list (list nat * nat)) (co : list nat) (cp : nat) (l : list FanIn.act) (s : FanIn.st),
  FanIn.wf_in m ps co -> length ps <= cp -> FanIn.run (FanIn.init m ps co cp) l = Some s -> (forall a, FanIn.step s a = None) ->
  Forall (fun p => FanIn.left p = 0) (FanIn.prods s) /\ forall ch, ch < m -> FanIn.q s ch = 0.
Proof. exact FanIn.fanin_maximal_run_completes. Qed.

(* ... and with a smaller buffer the statement is false (finding D21): two producers, three shared in-ports, buffer size 1 --
   a reachable state in which a producer still has items and no action is possible, whatever order it proposes (replayed on
   the real library with SCIPIPE_BUFSIZE=1) *)
Theorem C05_fanin_small_buffer_refuted :
  exists sched s, FanIn.run (FanIn.d21 1) sched = Some s /\ (forall a, FanIn.step s a = None)
                  /\ Exists (fun p => FanIn.left p <> 0) (FanIn.prods s).
Proof. exact FanIn.fanin_deadlock. Qed.

(* the hypotheses of C05_fanin_no_deadlock are satisfiable: the configuration of the finding, with buffer size 2 *)
Theorem C05_fanin_nonvacuous :
  FanIn.wf_in 3 [([0; 1; 2], 1); ([1; 0; 2], 1)] [2; 0; 1] /\ length [([0; 1; 2], 1); ([1; 0; 2], 1)] <= 2.
Proof. exact FanIn.fanin_wf_example. Qed.

(* a streamed and a regular output of one task into one consumer (finding D23, recorded).
   StreamReg: Process.Run sends a task's streamed out-IPs before the task executes and its regular ones after it has
   finished; the consumer forms its task when every in-port has delivered; a command writing a FIFO ends only after a reader
   opened it.  With the stream alone every state short of the end can move ... *)
Theorem C05_stream_only_progress : forall l s,
  StreamReg.run false StreamReg.init l = Some s -> StreamReg.final s = false -> StreamReg.stuck false s = false.
Proof. exact StreamReg.stream_only_progress. Qed.

(* ... and every run is at most 7 steps long (the measure of the initial state) ... *)
Theorem C05_stream_reg_step_decreases : forall both s a s',
  StreamReg.step both s a = Some s' -> StreamReg.measure s' < StreamReg.measure s.
Proof. exact StreamReg.step_decreases. Qed.

(* ... and the end can be reached: a run of seven steps that reaches it ... *)
Theorem C05_stream_only_nonvacuous :
  exists s, StreamReg.run false StreamReg.init
              [StreamReg.SendStream; StreamReg.StartCmd; StreamReg.Form; StreamReg.WriteAll; StreamReg.ReadAll;
               StreamReg.Finish; StreamReg.SendReg] = Some s /\ StreamReg.final s = true.
Proof. exact StreamReg.stream_only_example. Qed.

(* ... with the regular output read by the same consumer the property fails for this wiring: no run ever completes (the
   consumer never forms its task, the producer's command never gets past open()), and after two steps nothing can move *)
Theorem C05_stream_and_regular_refuted :
  (forall l s, StreamReg.run true StreamReg.init l = Some s -> StreamReg.final s = false) /\
  (exists s, StreamReg.run true StreamReg.init [StreamReg.SendStream; StreamReg.StartCmd] = Some s
             /\ StreamReg.stuck true s = true /\ StreamReg.final s = false).
Proof. split; [exact StreamReg.both_refuted | exact StreamReg.both_is_stuck]. Qed.

(* T1, call cones (DESIGN 11.26, ExpectedCones.v): every function of scipipe reachable from the functions above is one the
   models were compared with. *)
Theorem C05_cone_conforms :
  strs_eqb cone_Workflow_runProcs exp_cone_Workflow_runProcs
  && strs_eqb cone_Workflow_Run exp_cone_Workflow_Run
  && strs_eqb cone_Workflow_reconnectDeadEndConnections exp_cone_Workflow_reconnectDeadEndConnections
  && strs_eqb cone_Sink_Run exp_cone_Sink_Run
  && strs_eqb cone_Process_Run exp_cone_Process_Run
  && strs_eqb cone_Process_createTasks exp_cone_Process_createTasks
  && strs_eqb cone_BaseProcess_CloseOutPorts exp_cone_BaseProcess_CloseOutPorts
  && strs_eqb cone_OutPort_Close exp_cone_OutPort_Close
  && strs_eqb cone_InPort_CloseConnection exp_cone_InPort_CloseConnection
  && strs_eqb cone_Task_Execute exp_cone_Task_Execute
  && strs_eqb cone_Workflow_IncConcurrentTasks exp_cone_Workflow_IncConcurrentTasks
  && strs_eqb cone_Workflow_DecConcurrentTasks exp_cone_Workflow_DecConcurrentTasks
  && strs_eqb cone_FinalizePaths exp_cone_FinalizePaths = true.
Proof. vm_compute. reflexivity. Qed.

Print Assumptions C05_code_conforms.
Print Assumptions C05_no_deadlock.
Print Assumptions C05_terminates.
Print Assumptions C05_not_early.
Print Assumptions C05_all_done_at_return.
Print Assumptions C05_no_leftovers.
Print Assumptions C05_param_feeder_may_lag.
Print Assumptions C05_nonvacuous.
Print Assumptions C05_with_slots_no_deadlock.
Print Assumptions C05_with_slots_terminates.
Print Assumptions C05_with_slots_all_done.
Print Assumptions C05_with_slots_maximal.
Print Assumptions C05_with_slots_nonvacuous.
Print Assumptions C05_fanin_no_deadlock.
Print Assumptions C05_fanin_terminates.
Print Assumptions C05_fanin_maximal.
Print Assumptions C05_fanin_small_buffer_refuted.
Print Assumptions C05_fanin_nonvacuous.
Print Assumptions C05_stream_only_progress.
Print Assumptions C05_stream_reg_step_decreases.
Print Assumptions C05_stream_only_nonvacuous.
Print Assumptions C05_stream_and_regular_refuted.
Print Assumptions C05_cone_conforms.
