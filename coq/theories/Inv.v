(* The counting invariant of the process network: on every edge, sent is what its source has emitted and received what
   its destination has created, each corrected by the round in progress (hand, sending, sx, rx); the counters of a node
   add up; an edge is closed exactly when its source has finished. *)
From Coq Require Import List Lia Bool PeanoNat.
Import ListNotations.
Require Import Lib NetA.

Lemma is_perm_refl l : NoDup l -> is_perm l l = true.
Proof. intros ND. now apply Lib.is_perm_complete. Qed.

(* file edges first, then parameter edges: the order in which createTasks reads the ports.  Dead.no_deadlock offers
   [fsort c (ins c v)] as the read order of ABegin, which [step] accepts (is_perm_fsort, par_sorted_fsort). *)
Definition fsort (c : cfg) (l : list nat) : list nat := filter (fun e => negb (epar c e)) l ++ filter (epar c) l.

Lemma par_sorted_all_par c l : forallb (epar c) l = true -> par_sorted c l = true.
Proof.
  induction l as [|a r IH]; simpl; auto. intros H. apply andb_true_iff in H. destruct H as [Ha Hr].
  rewrite Ha, Hr. auto.
Qed.

Lemma par_sorted_app_files c l1 l2 :
  (forall x, In x l1 -> epar c x = false) -> par_sorted c l2 = true -> par_sorted c (l1 ++ l2) = true.
Proof.
  induction l1 as [|a r IH]; simpl; intros H1 H2; auto.
  rewrite (H1 a) by (left; reflexivity). apply IH; auto.
Qed.

Lemma par_sorted_fsort c l : par_sorted c (fsort c l) = true.
Proof.
  unfold fsort. apply par_sorted_app_files.
  - intros x Hx. apply filter_In in Hx. destruct Hx as [_ Hn]. now apply negb_true_iff in Hn.
  - apply par_sorted_all_par. apply forallb_forall. intros x Hx. apply filter_In in Hx. tauto.
Qed.

Lemma in_fsort c l x : In x (fsort c l) <-> In x l.
Proof.
  unfold fsort. rewrite in_app_iff, !filter_In. destruct (epar c x); intuition congruence.
Qed.

Lemma nodup_fsort c l : NoDup l -> NoDup (fsort c l).
Proof.
  intros ND. unfold fsort. apply NoDup_app.
  - apply NoDup_filter; exact ND.
  - apply NoDup_filter; exact ND.
  - intros x H1 H2. apply filter_In in H1. apply filter_In in H2. destruct H1 as [_ H1]. destruct H2 as [_ H2].
    rewrite H2 in H1. discriminate.
Qed.

Lemma is_perm_fsort c l : NoDup l -> is_perm (fsort c l) l = true.
Proof.
  intros ND. apply Lib.is_perm_complete; auto.
  - apply nodup_fsort; auto.
  - intros x. apply in_fsort.
Qed.

Section Net.
Variable c : cfg.
(* [len v]: the number of tasks node v creates over the whole run (for a source, of items it emits) *)
Variable len : nat -> nat.

Definition E := length (edges c).

(* [wf_topo]: a DAG, numbered topologically; [wf_cap]: capacity 0 (SCIPIPE_BUFSIZE=0, an unbuffered channel, which
   getBufsize lets through: settings.go:12-21) is outside the model.
   [wf_bal] is the rate-1 assumption: both ends of an edge handle the same number of items; [wf_proc]: a node that is not
   a source has an in-edge.  [len] is given, not computed: wf_src and wf_bal determine it on every node that a source
   reaches. *)
Record wf : Prop := {
  wf_topo : forall e, e < E -> esrc c e < edst c e /\ edst c e < nn c;
  wf_cap : 1 <= cap c;
  wf_src : forall v L, slen c v = Some L -> len v = L /\ ins c v = [];
  wf_proc : forall v, v < nn c -> slen c v = None -> ins c v <> [];
  wf_bal : forall e, e < E -> len (esrc c e) = len (edst c e)
}.

Lemma in_ins e v : In e (ins c v) <-> e < E /\ edst c e = v.
Proof.
  unfold ins, eids, E. rewrite filter_In, in_seq, Nat.eqb_eq. lia.
Qed.
Lemma in_outs e v : In e (outs c v) <-> e < E /\ esrc c e = v.
Proof.
  unfold outs, eids, E. rewrite filter_In, in_seq, Nat.eqb_eq. lia.
Qed.
Lemma nodup_ins v : NoDup (ins c v).
Proof. unfold ins. apply NoDup_filter, seq_NoDup. Qed.
Lemma nodup_outs v : NoDup (outs c v).
Proof. unfold outs. apply NoDup_filter, seq_NoDup. Qed.

(* Work in progress that the counters of a node do not show yet, as 0/1:
   [hand n]: createTasks holds a complete round not yet handed over (received on every in-edge, not yet in cN);
   [sending n]: the Run loop is in a send round (its task has left startedTasks, eN counts it at the end of the round);
   [sx n e]: that send round has already sent on e;  [rx n e]: the round in progress has already received on e.
   [rx] is 0 in a round that saw a closed port: the first closed port is met with cN = len v and nothing yet received in
   the round, and every port read after it is found closed and empty (first_closed, recv_not_saw). *)
Definition hand (n : nst) := match ct n with CtHand => 1 | _ => 0 end.
Definition sending (n : nst) := match rn n with RSend _ => 1 | _ => 0 end.
Definition sx (n : nst) (e : nat) :=
  match rn n with RSend todo => if existsb (Nat.eqb e) todo then 0 else 1 | _ => 0 end.
Definition rx (n : nst) (e : nat) :=
  match ct n with CtRecv todo false => if existsb (Nat.eqb e) todo then 0 else 1 | _ => 0 end.

(* [ni_done], [ni_saw]: createTasks meets a closed port, and stops, only when all len v tasks are created; [ni_fin]: the
   Run loop finishes after createTasks, with no task in flight and all emitted.  The guard of [ni_count] is there only
   so that [ni_fin] can say the same for RFin: see ni_total.
   [ni_le]: at most len v tasks, the round in hand counted; [ni_rtodo], [ni_stodo]: what the round has still to read,
   resp. to send on, is duplicate-free and among v's in-edges, resp. out-edges; [slen c v = None] sits in [ni_rtodo]
   because LEndRound needs it to call wf_proc (Pres.step_inv). *)
Record NodeInvN (v : nat) (n : nst) : Prop := {
  ni_count : rn n <> RFin -> eN n + length (fl n) + sending n = cN n;
  ni_fin : rn n = RFin -> ct n = CtDone /\ fl n = [] /\ eN n = cN n;
  ni_le : cN n + hand n <= len v;
  ni_done : ct n = CtDone -> cN n = len v;
  ni_saw : forall todo, ct n = CtRecv todo true -> cN n = len v;
  ni_rtodo : forall todo saw, ct n = CtRecv todo saw -> NoDup todo /\ (forall y, In y todo -> In y (ins c v)) /\ slen c v = None;
  ni_stodo : forall todo, rn n = RSend todo -> NoDup todo /\ (forall x, In x todo -> In x (outs c v))
}.

Record EdgeInvN (e : nat) (x : est) (nu nw : nst) : Prop := {
  ei_snt : snt x = eN nu + sx nu e;
  ei_rcv : rcv x = cN nw + hand nw + rx nw e;
  ei_q : rcv x <= snt x /\ snt x - rcv x <= cap c;
  ei_clo : clo x = true <-> rn nu = RFin
}.

Definition NodeInv (s : st) (v : nat) := NodeInvN v (ns s v).
Definition EdgeInv (s : st) (e : nat) := EdgeInvN e (es s e) (ns s (esrc c e)) (ns s (edst c e)).

Definition Inv (s : st) : Prop :=
  (forall v, v < nn c -> NodeInv s v) /\ (forall e, e < E -> EdgeInv s e).

End Net.

Arguments ni_count {c len v n}. Arguments ni_fin {c len v n}. Arguments ni_le {c len v n}. Arguments ni_done {c len v n}.
Arguments ni_saw {c len v n}. Arguments ni_rtodo {c len v n}. Arguments ni_stodo {c len v n}.
Arguments ei_snt {c e x nu nw}. Arguments ei_rcv {c e x nu nw}. Arguments ei_q {c e x nu nw}. Arguments ei_clo {c e x nu nw}.

(* a lemma of this section takes [WF] exactly when its proof uses it ([About] tells) *)
Section Facts.
Context {c : cfg} {len : nat -> nat}.
Hypothesis WF : wf c len.
Notation NodeInvN := (NodeInvN c len).
Notation EdgeInvN := (EdgeInvN c).
Notation Inv := (Inv c len).
Notation E := (E c).

(* [ni_count] without its guard: once the Run loop has finished, [ni_fin] gives the same *)
Lemma ni_total {v n} : NodeInvN v n -> eN n + length (fl n) + sending n = cN n.
Proof.
  intros NI. destruct (rn n) eqn:R; try (apply (ni_count NI); congruence).
  destruct (ni_fin NI R) as (_ & -> & ->). unfold sending. rewrite R. simpl. lia.
Qed.

Lemma sx_head {n e todo} : rn n = RSend (e :: todo) -> sx n e = 0.
Proof. unfold sx. intros ->. simpl. now rewrite Nat.eqb_refl. Qed.
Lemma rx_head {n e todo saw} : ct n = CtRecv (e :: todo) saw -> rx n e = 0.
Proof. unfold rx. intros ->. destruct saw; auto. simpl. now rewrite Nat.eqb_refl. Qed.

Lemma src_node {e} : e < E -> esrc c e < nn c.
Proof. intros He. destruct (wf_topo _ _ WF e He). lia. Qed.

Lemma inv_in {s v y} : Inv s -> In y (ins c v) -> y < E /\ edst c y = v /\ EdgeInvN y (es s y) (ns s (esrc c y)) (ns s v).
Proof. intros [_ HE] Hy. apply in_ins in Hy. destruct Hy as [He <-]. split; [|split]; auto. apply (HE y He). Qed.
Lemma inv_out {s v x} : Inv s -> In x (outs c v) -> x < E /\ esrc c x = v /\ EdgeInvN x (es s x) (ns s v) (ns s (edst c x)).
Proof. intros [_ HE] Hx. apply in_outs in Hx. destruct Hx as [He <-]. split; [|split]; auto. apply (HE x He). Qed.

Lemma snt_le_cN {s e} : Inv s -> e < E -> snt (es s e) <= cN (ns s (esrc c e)).
Proof.
  intros HI He. pose proof (proj1 HI _ (src_node He)) as NI. rewrite (ei_snt (proj2 HI e He)).
  pose proof (ni_total NI) as T. unfold sx, sending in *. destruct (rn (ns s (esrc c e))); try lia.
  destruct (existsb _ _); lia.
Qed.

Lemma snt_le_len {s e} : Inv s -> e < E -> snt (es s e) <= len (esrc c e).
Proof.
  intros HI He. pose proof (snt_le_cN HI He). pose proof (proj1 HI _ (src_node He)) as NI. pose proof (ni_le NI). lia.
Qed.

Lemma closed_full {s e} : Inv s -> e < E -> clo (es s e) = true -> snt (es s e) = len (edst c e).
Proof.
  intros HI He Hc. pose proof (proj1 HI _ (src_node He)) as NI. pose proof (proj2 HI e He) as EI.
  apply (ei_clo EI) in Hc. destruct (ni_fin NI Hc) as (D & _ & Eq). pose proof (ni_done NI D).
  rewrite (ei_snt EI), <- (wf_bal _ _ WF e He). unfold sx. rewrite Hc. lia.
Qed.

Lemma in_edge {s v y} : Inv s -> In y (ins c v) ->
  rcv (es s y) = cN (ns s v) + hand (ns s v) + rx (ns s v) y /\ rcv (es s y) <= snt (es s y) /\ snt (es s y) <= len v.
Proof.
  intros HI Hy. destruct (inv_in HI Hy) as (He & Hd & EI). pose proof (snt_le_len HI He) as H.
  rewrite (wf_bal _ _ WF y He), Hd in H. split; [apply (ei_rcv EI)|split; [apply (ei_q EI)|exact H]].
Qed.

(* the edge at the head of the read order: nothing of the round in progress has gone over it *)
Lemma recv_head {s v y todo saw} : Inv s -> v < nn c -> ct (ns s v) = CtRecv (y :: todo) saw ->
  In y (ins c v) /\ rcv (es s y) = cN (ns s v).
Proof.
  intros HI Hv Ct. destruct (ni_rtodo (proj1 HI v Hv) _ _ Ct) as (_ & Hsub & _).
  pose proof (Hsub y (or_introl eq_refl)) as Hy. split; [exact Hy|].
  destruct (in_edge HI Hy) as (R & _). rewrite (rx_head Ct) in R. unfold hand in R. rewrite Ct in R. lia.
Qed.

(* LRecv does not fire in a round that saw a closed port: with cN = len v every in-edge is drained *)
Lemma recv_not_saw {s v y todo saw} : Inv s -> v < nn c -> ct (ns s v) = CtRecv (y :: todo) saw ->
  rcv (es s y) < snt (es s y) -> saw = false.
Proof.
  intros HI Hv Ct Q. destruct saw; [exfalso|reflexivity]. destruct (recv_head HI Hv Ct) as [Hy R].
  destruct (in_edge HI Hy) as (_ & _ & H). rewrite (ni_saw (proj1 HI v Hv) _ Ct) in R. lia.
Qed.

(* LRecvClosed: a port found closed and empty has carried the whole stream, so cN = len v; if it is the first such port
   of its round, nothing has been received in the round *)
Lemma first_closed {s v y todo saw} : Inv s -> v < nn c -> ct (ns s v) = CtRecv (y :: todo) saw ->
  snt (es s y) <= rcv (es s y) -> clo (es s y) = true ->
  cN (ns s v) = len v /\ (saw = false -> forall z, In z (ins c v) -> In z (y :: todo)).
Proof.
  intros HI Hv Ct Q Cl. destruct (recv_head HI Hv Ct) as [Hy R]. destruct (inv_in HI Hy) as (He & Hd & _).
  pose proof (closed_full HI He Cl) as F. rewrite Hd in F. destruct (in_edge HI Hy) as (_ & H & _).
  split; [lia|].
  intros -> z Hz. destruct (in_edge HI Hz) as (Rz & ? & ?). unfold rx in Rz. rewrite Ct in Rz.
  destruct (existsb (Nat.eqb z) (y :: todo)) eqn:X; [now apply existsb_eqb_In|lia].
Qed.

Lemma init_inv : Inv (init c).
Proof.
  split.
  - intros v Hv. constructor; unfold sending, hand; simpl; try discriminate; lia.
  - intros e He. constructor; unfold sx, rx, hand; simpl; try lia. split; congruence.
Qed.

End Facts.
