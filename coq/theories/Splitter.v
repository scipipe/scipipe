(* FileSplitter (C19): a model of bufio.ScanLines and of the split loop; the parts conserve the lines, and none has more
   lines than the bound. *)
From Coq Require Import List Arith Lia.
Import ListNotations.

Definition byte := nat.
Definition LF : byte := 10.
Definition CR : byte := 13.

Definition dropCR (l : list byte) : list byte :=
  match rev l with c :: r => if Nat.eqb c CR then rev r else l | [] => l end.

(* bufio.ScanLines over the whole file (the 64 KiB token limit is not modelled) *)
Fixpoint scan_lines (s : list byte) (cur : list byte) : list (list byte) :=
  match s with
  | [] => match cur with [] => [] | _ => [dropCR (rev cur)] end
  | c :: r => if Nat.eqb c LF then dropCR (rev cur) :: scan_lines r [] else scan_lines r (c :: cur)
  end.
Definition lines_of (s : list byte) := scan_lines s [].

(* the loop of FileSplitter.Run, with its two counters *)
Fixpoint go {A} (n : nat) (ls : list A) (lineNo splitNo : nat) (cur : list A) (done : list (list A)) : list (list A) :=
  match ls with
  | [] => rev (rev cur :: done)
  | l :: r =>
    if Nat.eqb lineNo (splitNo * n)
    then go n r (S lineNo) (S splitNo) [] (rev (l :: cur) :: done)
    else go n r (S lineNo) splitNo (l :: cur) done
  end.
Definition split {A} (n : nat) (ls : list A) : list (list A) := go n ls 1 1 [] [].

Lemma go_concat {A} n (ls : list A) : forall lineNo splitNo cur done,
  concat (go n ls lineNo splitNo cur done) = concat (rev done) ++ rev cur ++ ls.
Proof.
  induction ls as [|l r IH]; intros; simpl.
  - rewrite concat_app. simpl. now rewrite app_nil_r.
  - destruct (Nat.eqb lineNo (splitNo * n)); rewrite IH; simpl.
    + rewrite concat_app. simpl. rewrite app_nil_r, <- !app_assoc. reflexivity.
    + rewrite <- app_assoc. reflexivity.
Qed.

Theorem split_conserves {A} n (ls : list A) : concat (split n ls) = ls.
Proof. unfold split. rewrite go_concat. reflexivity. Qed.

(* first premise: lineNo - 1 lines read = (splitNo - 1) full parts + cur, said without subtraction *)
Lemma go_bound {A} n (ls : list A) : forall lineNo splitNo cur done,
  lineNo + n = splitNo * n + length cur + 1 -> length cur < n ->
  Forall (fun p => length p <= n) done ->
  Forall (fun p => length p <= n) (go n ls lineNo splitNo cur done).
Proof.
  induction ls as [|l r IH]; intros lineNo splitNo cur done Hl Hc Hd; simpl.
  - apply Forall_app. split; [apply Forall_rev; auto|]. constructor; [rewrite rev_length; lia|constructor].
  - destruct (Nat.eqb_spec lineNo (splitNo * n)) as [E|E].
    + (* the part is full: length cur + 1 = n *)
      apply IH; simpl; try lia. constructor; auto. change (length (rev (l :: cur)) <= n). rewrite rev_length. simpl. lia.
    + apply IH; simpl; auto; lia.
Qed.

Theorem split_bound {A} n (ls : list A) : 1 <= n -> Forall (fun p => length p <= n) (split n ls).
Proof. intros Hn. unfold split. apply go_bound; auto; simpl; lia. Qed.

(* bytes: every part is written as its lines, each followed by LF *)
Definition render (p : list (list byte)) : list byte := concat (map (fun l => l ++ [LF]) p).
Definition normalise (s : list byte) : list byte := render (lines_of s).

Theorem C19_split_bytes n (s : list byte) :
  concat (map render (split n (lines_of s))) = normalise s.
Proof.
  unfold normalise, render. rewrite <- (split_conserves n (lines_of s)) at 2.
  generalize (split n (lines_of s)). intros ps. induction ps as [|p ps IH]; simpl; auto.
  rewrite map_app, concat_app, IH. reflexivity.
Qed.

Print Assumptions C19_split_bytes.
Print Assumptions split_bound.
