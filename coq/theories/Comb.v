(* FileCombinator / ParamCombinator: `combine` computes the aligned Cartesian product (C19). *)
From Coq Require Import List Lia FinFun.
Import ListNotations.
From SP Require Import Lib.

Section Comb.
Variable A : Type.

(* streams in the order of the keys slice (any: Run fills it by map iteration, file_combinator.go:60-63); result: aligned
   streams in the same order *)
Fixpoint comb (ss : list (list A)) : list (list A) :=
  match ss with
  | [] => []
  | h :: t =>
    match t with
    | [] => [h]
    | _ =>
      let t' := comb t in
      let n := length (hd [] t') in
      flat_map (fun a => repeat a n) h :: map (fun tj => concat (repeat tj (length h))) t'
    end
  end.

(* reference: the Cartesian product as a list of tuples, first key most significant *)
Fixpoint prod (ss : list (list A)) : list (list A) :=
  match ss with
  | [] => [[]]
  | h :: t => flat_map (fun a => map (cons a) (prod t)) h
  end.

(* column j of a list of tuples (None where a tuple is too short) *)
Definition col (j : nat) (tuples : list (list A)) : list (option A) := map (fun tup => nth_error tup j) tuples.

Lemma comb_cons2 h h' t' :
  comb (h :: h' :: t') =
  flat_map (fun a => repeat a (length (hd [] (comb (h' :: t'))))) h ::
  map (fun tj => concat (repeat tj (length h))) (comb (h' :: t')).
Proof. reflexivity. Qed.

Lemma comb_length ss : length (comb ss) = length ss.
Proof.
  induction ss as [|h t IH]; [reflexivity|]. destruct t as [|h' t']; [reflexivity|].
  rewrite comb_cons2. cbn [length]. rewrite map_length, IH. reflexivity.
Qed.

Lemma col0_flat (h : list A) (P : list (list A)) :
  col 0 (flat_map (fun a => map (cons a) P) h) = map Some (flat_map (fun a => repeat a (length P)) h).
Proof.
  unfold col. induction h as [|a h IH]; [reflexivity|]. cbn [flat_map].
  rewrite !map_app, IH. f_equal. rewrite map_map. cbn [nth_error].
  (* the heads of `map (cons a) P` are a, length P times *)
  clear. induction P; simpl; congruence.
Qed.

Lemma colS_flat j (h x : list A) (P : list (list A)) : col j P = map Some x ->
  col (S j) (flat_map (fun a => map (cons a) P) h) = map Some (concat (repeat x (length h))).
Proof.
  intros E. unfold col. induction h as [|a h IH]; [reflexivity|]. cbn [flat_map length repeat concat].
  rewrite !map_app, IH. f_equal. rewrite map_map. exact E.
Qed.

Lemma col_length j (l : list A) P : map Some l = col j P -> length l = length P.
Proof. intros E. apply (f_equal (@length _)) in E. unfold col in E. now rewrite !map_length in E. Qed.

(* C19_product *)
Theorem comb_is_product ss : forall j, j < length ss ->
  map Some (nth j (comb ss) []) = col j (prod ss).
Proof.
  induction ss as [|h t IH]; intros j Hj; simpl in Hj; [lia|].
  destruct t as [|h' t'].
  - (* single stream: identity *)
    simpl in Hj. assert (j = 0) by lia. subst. cbn [comb nth prod]. unfold col.
    (* prod [h] is the list of the singletons [a], a in h *)
    clear. induction h as [|a h IHh]; [reflexivity|]. cbn [flat_map map app]. now rewrite IHh.
  - rewrite comb_cons2. set (t := h' :: t') in *.
    assert (Hlen0 : length (hd [] (comb t)) = length (prod t)).
    { rewrite <- (col_length 0 _ _ (IH 0 (PeanoNat.Nat.lt_0_succ _))). destruct (comb t); reflexivity. }
    change (prod (h :: t)) with (flat_map (fun a => map (cons a) (prod t)) h).
    destruct j as [|j].
    + rewrite col0_flat, Hlen0. reflexivity.
    + cbn [nth]. assert (Hj' : j < length t) by (cbn [length] in Hj; lia).
      rewrite (colS_flat j h (nth j (comb t) [])) by (symmetry; exact (IH j Hj')).
      rewrite (nth_indep _ [] (concat (repeat [] (length h)))) by (rewrite map_length, comb_length; exact Hj').
      now rewrite (map_nth (fun tj => concat (repeat tj (length h)))).
Qed.

Theorem comb_lengths ss j : j < length ss -> length (nth j (comb ss) []) = length (prod ss).
Proof.
  intros Hj. exact (col_length j _ _ (comb_is_product ss j Hj)).
Qed.

(* the reference product itself: what "each element of the Cartesian product exactly once" means *)
Lemma prod_spec ss : forall tup, In tup (prod ss) <-> Forall2 (fun a s => In a s) tup ss.
Proof.
  induction ss as [|h t IH]; intros tup; simpl.
  - split; [intros [<-|[]]; constructor|intros H; inversion H; auto].
  - rewrite in_flat_map. split.
    + intros [a [Ha Hm]]. apply in_map_iff in Hm. destruct Hm as [r [<- Hr]]. constructor; auto. apply IH. exact Hr.
    + intros H. inversion H as [|a r ? ? Ha Hr]. exists a. split; [exact Ha|]. apply in_map, IH, Hr.
Qed.

Fixpoint lprod (ss : list (list A)) : nat := match ss with [] => 1 | h :: t => length h * lprod t end.

Lemma prod_length ss : length (prod ss) = lprod ss.
Proof.
  induction ss as [|h t IH]; simpl; auto.
  induction h as [|a r IHr]; simpl; auto. now rewrite app_length, map_length, IHr, IH.
Qed.

Theorem prod_nodup ss : Forall (@NoDup A) ss -> NoDup (prod ss).
Proof.
  induction 1 as [|h t Hh _ IH]; [repeat constructor; intros []|].
  induction Hh as [|a r Ha _ IHr]; [constructor|]. apply NoDup_app; auto.
  - apply Injective_map_NoDup; auto. intros x y E. now injection E.
  - intros x Hx Hy. apply in_map_iff in Hx as [u [<- _]]. apply in_flat_map in Hy as [b [Hb Hy]].
    apply in_map_iff in Hy as [v [E _]]. injection E as -> _. contradiction.
Qed.

End Comb.
Print Assumptions comb_is_product.
Eval vm_compute in comb nat [[1;2];[10;20;30]].
Eval vm_compute in comb nat [[1;2];[];[7]].
