(* Runs of the network: a schedule that names existing nodes keeps Inv (run_inv), so no reachable state is stuck before
   every node has finished (reachable_not_stuck).  Also [dia], the example configuration on which NetSlots, PropC04 and
   PropC05 show their hypotheses met. *)
From Coq Require Import List Lia PeanoNat.
Import ListNotations.
Require Import NetA Inv Pres Dead.

Section Top.
Variable c : cfg.
Variable len : nat -> nat.
Hypothesis WF : wf c len.

(* NetA.step does not check that the acting node exists (NetSlots.pstep and the replay instance put the check into
   their step functions); the theorems about runs ask it of the schedule *)
Fixpoint sched_ok (sched : list act) : Prop :=
  match sched with [] => True | a :: r => node_of a < nn c /\ sched_ok r end.

Lemma run_inv sched : forall s s', Inv c len s -> sched_ok sched -> run c s sched = Some s' -> Inv c len s'.
Proof.
  induction sched as [|a r IH]; simpl; intros s s' HI Hok H.
  - inversion H; subst; assumption.
  - destruct Hok as [Ha Hr]. destruct (step c s a) as [s1|] eqn:E; [|discriminate].
    apply (IH s1 s'); auto. apply (step_inv c len WF s a s1); auto.
Qed.

(* C05, deadlock freedom (PropC05.C05_no_deadlock) *)
Theorem reachable_not_stuck sched s :
  sched_ok sched -> run c (init c) sched = Some s ->
  (exists v, v < nn c /\ rn (ns s v) <> RFin) ->
  exists a, node_of a < nn c /\ step c s a <> None.
Proof.
  intros Hok Hrun Hun. eapply no_deadlock; eauto.
  eapply run_inv; eauto. apply init_inv.
Qed.
End Top.
Print Assumptions reachable_not_stuck.

(* non-vacuity: a diamond  0 -> 1 -> 3, 0 -> 2 -> 3, source of 2 items, capacity 1 *)
Definition dia : cfg := {| nn := 4; edges := [(0,1);(0,2);(1,3);(2,3)];
                           slen := fun v => if Nat.eqb v 0 then Some 2 else None; cap := 1; epar := fun _ => false |}.
Lemma dia_wf : wf dia (fun _ => 2).
Proof.
  constructor; simpl.
  - (* wf_topo *) intros e He. unfold E in He; simpl in He. unfold esrc, edst.
    destruct e as [|[|[|[|e]]]]; simpl; lia.
  - (* wf_cap *) lia.
  - (* wf_src *) intros v L. destruct (Nat.eqb_spec v 0); [|discriminate]. intros H; inversion H; subst. split; reflexivity.
  - (* wf_proc *) intros v Hv. destruct v as [|[|[|[|v]]]]; try discriminate; lia.
  - (* wf_bal *) reflexivity.
Qed.
