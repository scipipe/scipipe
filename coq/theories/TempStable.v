(* C14: the temp-dir name does not depend on the order in which Go iterates over the maps of a task (keys are sorted),
   and the hash pre-image determines the value of a single parameter and a single one-segment input path. *)
From Coq Require Import List Ascii String NArith Lia Permutation.
Import ListNotations.
From SP Require Import PathLex TempNames TempDirModel.

Lemma N_of_ascii_inj a b : N_of_ascii a = N_of_ascii b -> a = b.
Proof. intros H. rewrite <- (ascii_N_embedding a), <- (ascii_N_embedding b). now rewrite H. Qed.

Lemma str_ltb_cons x a y b :
  str_ltb (x :: a) (y :: b) = true <-> (N_of_ascii x < N_of_ascii y)%N \/ (x = y /\ str_ltb a b = true).
Proof.
  simpl. destruct (N.ltb_spec (N_of_ascii x) (N_of_ascii y)) as [L|L]; [tauto|].
  destruct (N.ltb_spec (N_of_ascii y) (N_of_ascii x)) as [L'|L'].
  - split; [discriminate|]. intros [H|[-> _]]; lia.
  - assert (x = y) by (apply N_of_ascii_inj; lia). subst y. split; [auto|]. intros [H|[_ H]]; [lia|exact H].
Qed.

Lemma str_ltb_total a : forall b, a <> b -> str_ltb b a = negb (str_ltb a b).
Proof.
  induction a as [|x a IH]; intros [|y b] D; try easy. simpl.
  destruct (N.ltb_spec (N_of_ascii x) (N_of_ascii y)) as [L|L], (N.ltb_spec (N_of_ascii y) (N_of_ascii x)) as [L'|L'];
    try reflexivity.
  - (* x < y and y < x *) lia.
  - (* neither: x = y, the tails decide *) apply IH. intros ->. apply D. f_equal. apply N_of_ascii_inj. lia.
Qed.

Lemma str_ltb_trans a : forall b c, str_ltb a b = true -> str_ltb b c = true -> str_ltb a c = true.
Proof.
  induction a as [|x a IH]; intros [|y b] [|z c]; try easy. rewrite !str_ltb_cons.
  intros [L1|[-> H1]] [L2|[-> H2]].
  - lia.
  - left. exact L1.
  - left. exact L2.
  - right. split; [reflexivity|]. exact (IH b c H1 H2).
Qed.

(* insertion commutes for distinct keys ([ins_kv_comm]), so a fold over a key-distinct list is invariant under permutation:
   the one fact behind C14_stable and C15_default_path_deterministic *)
Section FoldPerm.
Variables (A B K : Type) (key : A -> K) (f : A -> B -> B).
Hypothesis f_comm : forall a b x, key a <> key b -> f a (f b x) = f b (f a x).

Lemma fold_right_perm (x : B) (l1 l2 : list A) :
  NoDup (map key l1) -> Permutation l1 l2 -> fold_right f x l1 = fold_right f x l2.
Proof.
  intros ND P. revert ND. induction P as [|a l1 l2 P IH|a b l|l1 l2 l3 P1 IH1 P2 IH2]; simpl; intros ND.
  - reflexivity.
  - apply NoDup_cons_iff in ND. rewrite (IH (proj2 ND)). reflexivity.
  - apply NoDup_cons_iff in ND. apply f_comm. intros E. apply (proj1 ND). left. symmetry. exact E.
  - rewrite (IH1 ND). apply IH2. exact (Permutation_NoDup (Permutation_map key P1) ND).
Qed.
End FoldPerm.

Section Sort.
Context {V : Type}.

Lemma ins_kv_comm_lt (a b : str * V) l :
  str_ltb (fst a) (fst b) = true -> str_ltb (fst b) (fst a) = false -> ins_kv a (ins_kv b l) = ins_kv b (ins_kv a l).
Proof.
  intros Lab Lba. induction l as [|h r IH]; simpl.
  - rewrite Lab, Lba. reflexivity.
  - destruct (str_ltb (fst b) (fst h)) eqn:Lbh.
    + (* a < b < h *) rewrite (str_ltb_trans _ _ _ Lab Lbh). simpl. rewrite Lab, Lba, Lbh. reflexivity.
    + destruct (str_ltb (fst a) (fst h)) eqn:Lah; simpl.
      * (* a < h, not b < h *) rewrite Lah, Lba, Lbh. reflexivity.
      * (* neither is below h *) rewrite Lah, Lbh, IH. reflexivity.
Qed.

(* into any list, sorted or not *)
Lemma ins_kv_comm (a b : str * V) l : fst a <> fst b -> ins_kv a (ins_kv b l) = ins_kv b (ins_kv a l).
Proof.
  intros D. pose proof (str_ltb_total _ _ D) as T. destruct (str_ltb (fst a) (fst b)) eqn:L.
  - apply ins_kv_comm_lt; assumption.
  - symmetry. apply ins_kv_comm_lt; assumption.
Qed.

Theorem sort_kv_order_independent {l1 l2 : list (str * V)} :
  NoDup (map fst l1) -> Permutation l1 l2 -> sort_kv l1 = sort_kv l2.
Proof. apply fold_right_perm. exact ins_kv_comm. Qed.
End Sort.

Theorem tempdir_stable (i j : ident) :
  iname i = iname j ->
  NoDup (map fst (iins i)) -> Permutation (iins i) (iins j) ->
  NoDup (map fst (isubs i)) -> Permutation (isubs i) (isubs j) ->
  NoDup (map fst (iparams i)) -> Permutation (iparams i) (iparams j) ->
  NoDup (map fst (itags i)) -> Permutation (itags i) (itags j) ->
  task_tempdir i = task_tempdir j.
Proof.
  intros Hn N1 P1 N2 P2 N3 P3 N4 P4. unfold task_tempdir, preimage.
  rewrite Hn, (sort_kv_order_independent N1 P1), (sort_kv_order_independent N2 P2),
          (sort_kv_order_independent N3 P3), (sort_kv_order_independent N4 P4). reflexivity.
Qed.

Lemma app_inv_mid {A} (a b c1 c2 d : list A) : a ++ b ++ c1 ++ d = a ++ b ++ c2 ++ d -> c1 = c2.
Proof. intros H. apply app_inv_head in H. apply app_inv_head in H. apply app_inv_tail in H. exact H. Qed.

(* the pre-image determines a lone parameter value, the other components being whatever they are (the name being the same,
   so does the hashed string: with C14_reduction equal temp dirs are a SHA-1 collision) *)
Theorem preimage_injective_param name ins subs tags k v1 v2 :
  preimage {| iname := name; iins := ins; isubs := subs; iparams := [(k, v1)]; itags := tags |} =
  preimage {| iname := name; iins := ins; isubs := subs; iparams := [(k, v2)]; itags := tags |} -> v1 = v2.
Proof.
  unfold preimage. simpl. rewrite !app_nil_r. intros H.
  apply app_inv_head, app_inv_mid, app_inv_head in H. injection H as H. exact H.
Qed.

Definition single_segment (p : str) : Prop := split_all p = [p].

(* injectivity in one input path that is a single proper segment (a file in the working directory) *)
Theorem preimage_injective_input name port p1 p2 subs pars tags :
  single_segment p1 -> single_segment p2 ->
  preimage {| iname := name; iins := [(port, p1)]; isubs := subs; iparams := pars; itags := tags |} =
  preimage {| iname := name; iins := [(port, p2)]; isubs := subs; iparams := pars; itags := tags |} -> p1 = p2.
Proof.
  unfold preimage, single_segment. simpl. intros S1 S2. rewrite S1, S2. simpl. rewrite !app_nil_r. intros H.
  apply app_inv_head, app_inv_tail in H. exact H.
Qed.

Example single_segment_example : single_segment (s2l "reads_1.fastq.gz").
Proof. vm_compute. reflexivity. Qed.
