(* One IP object handed to two consumers of the same out-port (finding D24).

   OutPort.Send gives every connected in-port the same *FileIP.  components.MapToTags adds its tags to the object it received
   (FileIP.AddTags: one AddTag -- one lock acquisition -- per tag); a process reads FileIP.Tags() once, when it forms the task
   for that IP, and the task's default output name contains what it read.  Two actors, any interleaving. *)
From Coq Require Import List Lia PeanoNat.
Import ListNotations.
From SP Require Import Lib.

Section TagShare.
Variable tag : Type.
Variable init_tags : list tag.        (* what the IP carries when it is sent *)
(* [new_tags] in the order in which this run's range over the map visits them (AddTags, ip.go:347-351) *)
Variable new_tags : list tag.         (* what the tagger's map function returns *)

Record st := { added : nat;                      (* how many of new_tags the tagger has added so far *)
               view : option (list tag) }.       (* what the sibling read when it formed its task *)

Inductive act := AddOne | Form.

Definition init : st := {| added := 0; view := None |}.

(* shared = true: the tagger writes to the object the sibling reads (the code); false: the tagger works on a copy of its own *)
Definition cell (shared : bool) (s : st) : list tag :=
  if shared then init_tags ++ firstn (added s) new_tags else init_tags.

Definition step (shared : bool) (s : st) (a : act) : option st :=
  match a with
  | AddOne => if Nat.ltb (added s) (length new_tags) then Some {| added := S (added s); view := view s |} else None
  | Form => match view s with None => Some {| added := added s; view := Some (cell shared s) |} | Some _ => None end
  end.

Fixpoint run (shared : bool) (s : st) (l : list act) : option st :=
  match l with [] => Some s | a :: r => match step shared s a with Some s' => run shared s' r | None => None end end.

Definition complete (s : st) : Prop := added s = length new_tags /\ view s <> None.

Definition Inv (shared : bool) (s : st) : Prop :=
  added s <= length new_tags /\
  forall v, view s = Some v -> exists j, j <= length new_tags /\ v = (if shared then init_tags ++ firstn j new_tags else init_tags).

Lemma step_inv shared s a s' : Inv shared s -> step shared s a = Some s' -> Inv shared s'.
Proof.
  intros [B V] H. destruct a; simpl in H.
  - (* AddOne *) destruct (Nat.ltb_spec (added s) (length new_tags)) as [L|]; [|discriminate]. injection H as <-. split; [exact L|exact V].
  - (* Form: the view is the cell as it is now *) destruct (view s); [discriminate|]. injection H as <-. split; [exact B|].
    intros v [= <-]. exists (added s). split; [exact B|reflexivity].
Qed.

Theorem view_is_some_prefix shared l s : run shared init l = Some s ->
  forall v, view s = Some v -> exists j, j <= length new_tags /\ v = (if shared then init_tags ++ firstn j new_tags else init_tags).
Proof.
  intros R. apply (run_invariant (step shared) (run shared)) with (P := Inv shared) in R; [exact (proj2 R)|reflexivity|reflexivity|exact (step_inv shared)|].
  split; [apply Nat.le_0_l|discriminate].
Qed.

Theorem private_copy_deterministic l s : run false init l = Some s -> forall v, view s = Some v -> v = init_tags.
Proof. intros R v Hv. destruct (view_is_some_prefix false l s R v Hv) as [j [_ E]]. exact E. Qed.

Lemma run_adds shared k : forall s, added s + k <= length new_tags ->
  run shared s (repeat AddOne k) = Some {| added := added s + k; view := view s |}.
Proof.
  induction k as [|k IH]; intros s H; simpl.
  - rewrite Nat.add_0_r. destruct s; reflexivity.
  - destruct (Nat.ltb_spec (added s) (length new_tags)); [|lia].
    rewrite IH; simpl; [|lia]. f_equal. f_equal. lia.
Qed.

(* with the shared object every prefix is the view of some complete run: the schedule `j additions, Form, the rest` *)
Theorem every_prefix_is_seen j : j <= length new_tags ->
  exists l s, run true init l = Some s /\ complete s /\ view s = Some (init_tags ++ firstn j new_tags).
Proof.
  intros Hj. exists (repeat AddOne j ++ Form :: repeat AddOne (length new_tags - j)).
  eexists. split.
  - rewrite (run_app (step true) (run true)), (run_adds true j init Hj) by reflexivity. simpl.
    rewrite run_adds; simpl; [reflexivity|lia].
  - split; [split; simpl; [lia|discriminate]|]. reflexivity.
Qed.

Theorem shared_object_timing_dependent : new_tags <> [] ->
  exists l1 s1 l2 s2 v1 v2, run true init l1 = Some s1 /\ complete s1 /\ view s1 = Some v1 /\
                            run true init l2 = Some s2 /\ complete s2 /\ view s2 = Some v2 /\ v1 <> v2.
Proof.
  intros NE.
  destruct (every_prefix_is_seen 0 (Nat.le_0_l _)) as (l1 & s1 & R1 & C1 & V1).
  destruct (every_prefix_is_seen (length new_tags) (le_n _)) as (l2 & s2 & R2 & C2 & V2).
  exists l1, s1, l2, s2, (init_tags ++ firstn 0 new_tags), (init_tags ++ firstn (length new_tags) new_tags).
  do 6 (split; [assumption|]). simpl. rewrite firstn_all. intros E. apply app_inv_head in E. congruence.
Qed.

Theorem shared_object_half_done : 2 <= length new_tags ->
  exists l s, run true init l = Some s /\ complete s /\ view s = Some (init_tags ++ firstn 1 new_tags) /\
              firstn 1 new_tags <> [] /\ firstn 1 new_tags <> new_tags.
Proof.
  intros H2. destruct (every_prefix_is_seen 1) as (l & s & R & C & V); [lia|].
  exists l, s. do 3 (split; [assumption|]).
  destruct new_tags as [|a [|b r]]; simpl in *; try lia. split; discriminate.
Qed.

End TagShare.

(* the witness of the finding: one tag (7 here, `sample` in the workflow observed); the sibling's default name has the tag
   piece in one run and not in the other *)
Example d24 :
  exists l1 s1 l2 s2, run nat [] [7] true (init nat) l1 = Some s1 /\ view nat s1 = Some [] /\
                      run nat [] [7] true (init nat) l2 = Some s2 /\ view nat s2 = Some [7].
Proof. exists [Form; AddOne], {| added := 1; view := Some [] |}, [AddOne; Form], {| added := 1; view := Some [7] |}. repeat split. Qed.
