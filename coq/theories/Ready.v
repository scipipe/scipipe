(* C16: the set of processes whose wiring is checked before a run covers the set of processes that are started.
   Workflow.Run passes wf.procs itself to runProcs; reconnectDeadEndConnections makes a process without out-ports the
   driver and, when other processes exist, deletes it from wf.procs -- hence from the map readyToRun ranges over.
   The driver is started all the same.  [checked_before]: the check without the driver clause (refuted:
   driver_unchecked_before_repair); [checked] includes the driver. *)
From Coq Require Import List PeanoNat Bool.
Import ListNotations.

Section Ready.
Variable noout : nat -> bool.      (* the process has neither out-ports nor parameter out-ports *)
Variable ready : nat -> bool.      (* every port of the process is connected *)

(* the process that replaces the sink as driver: the selected process without out-ports, when there is exactly one.  With two
   or more Go stops in Failf (workflow.go:418-421); the model answers None as it does with none: no driver, all are started *)
Definition driver (sel : list nat) : option nat :=
  match filter noout sel with [d] => Some d | _ => None end.

(* the map handed to readyToRun and to the start loop, after reconnectDeadEndConnections;
   [aliased]: it is wf.procs itself (Run), not a fresh map (RunTo) *)
Definition procs_after (aliased : bool) (sel : list nat) : list nat :=
  match driver sel with
  | Some d => if aliased && Nat.ltb 1 (length sel) then remove Nat.eq_dec d sel else sel
  | None => sel
  end.

(* with a driver d Go starts the sink as well when something is connected to it (workflow.go:337-339): [started] leaves it
   out in that branch too *)
Definition started (aliased : bool) (sel : list nat) : list nat :=
  match driver sel with
  | Some d => remove Nat.eq_dec d (procs_after aliased sel) ++ [d]
  | None => procs_after aliased sel          (* plus the sink, which has no unconnected port that matters *)
  end.

Definition checked_before (aliased : bool) (sel : list nat) : list nat := procs_after aliased sel.

Definition checked (aliased : bool) (sel : list nat) : list nat :=
  match driver sel with
  | Some d => procs_after aliased sel ++ [d]
  | None => procs_after aliased sel
  end.

(* runProcs: the check comes first; if it fails nothing is started *)
Definition run_starts (chk : list nat) (aliased : bool) (sel : list nat) : list nat :=
  if forallb ready chk then started aliased sel else [].

Lemma in_remove_iff x a l : In x (remove Nat.eq_dec a l) <-> In x l /\ x <> a.
Proof.
  split.
  - apply in_remove.
  - intros [H1 H2]. now apply in_in_remove.
Qed.

Theorem started_are_checked aliased sel p : In p (started aliased sel) -> In p (checked aliased sel).
Proof.
  unfold started, checked. destruct (driver sel) as [d|]; auto.
  rewrite !in_app_iff. intros [H|H]; [|right; exact H].
  apply in_remove_iff in H. tauto.
Qed.

(* an unconnected port of any process that would be started makes the run start nothing *)
Theorem unready_refused aliased sel p :
  In p (started aliased sel) -> ready p = false -> run_starts (checked aliased sel) aliased sel = [].
Proof.
  intros Hs Hr. unfold run_starts.
  destruct (forallb ready (checked aliased sel)) eqn:E; auto.
  rewrite forallb_forall in E. rewrite (E p (started_are_checked _ _ _ Hs)) in Hr. discriminate.
Qed.

Lemma driver_in sel d : driver sel = Some d -> In d sel.
Proof.
  unfold driver. destruct (filter noout sel) as [|a [|b r]] eqn:F; try discriminate. intros [= <-].
  apply (filter_In noout). rewrite F. left. reflexivity.
Qed.

(* a fully wired selection is not refused *)
Theorem ready_runs aliased sel :
  (forall p, In p sel -> ready p = true) -> run_starts (checked aliased sel) aliased sel = started aliased sel.
Proof.
  intros H. unfold run_starts.
  replace (forallb ready (checked aliased sel)) with true; [reflexivity|].
  symmetry. apply forallb_forall. intros p Hp. apply H. unfold checked, procs_after in Hp.
  destruct (driver sel) as [d|] eqn:D; [|exact Hp].
  apply in_app_iff in Hp. destruct Hp as [Hp|[<-|[]]]; [|exact (driver_in sel d D)].
  destruct (aliased && Nat.ltb 1 (length sel)); [|exact Hp]. apply in_remove_iff in Hp. tauto.
Qed.

End Ready.

(* before the repair: source 0 feeds process 1, which has no out-ports and an unconnected in-port; under Run the driver
   is missing from the checked set, the check passes, and both processes are started *)
Theorem driver_unchecked_before_repair :
  let noout := fun p => Nat.eqb p 1 in
  let ready := fun p => negb (Nat.eqb p 1) in
  run_starts noout ready (checked_before noout true [0; 1]) true [0; 1] = [0; 1] /\
  run_starts noout ready (checked noout true [0; 1]) true [0; 1] = [].
Proof. split; vm_compute; reflexivity. Qed.
