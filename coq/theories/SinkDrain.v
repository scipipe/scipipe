(* The sink drains the out-ports nobody consumes: a file in-port and a parameter in-port.

   Sink.Run reads both ports at the same time (one goroutine per port, merged).  An upstream process that feeds both -- a
   combinator whose file and parameter out-ports were left dangling, or were cut off by RunTo -- sends in an order of its own
   and closes its out-ports only after the last send.  `conc = true` is the code; `conc = false` is a sink that reads the file
   port to its end first and the parameter port after it. *)
From Coq Require Import List Lia Bool PeanoNat.
Import ListNotations.

Record st := { plan : list bool;      (* what the upstream still has to send: true = on the file port, false = on the parameter port *)
               qf : nat; qp : nat;    (* items buffered in the two in-ports of the sink *)
               closed : bool }.       (* the upstream has closed its out-ports *)

Inductive act := Send | Close | RecvF | RecvP.

Section Sink.
Variable capf capp : nat.             (* SCIPIPE_BUFSIZE for the two ports *)
Variable conc : bool.

(* Send writes [closed := false] where the other actions copy [closed s]: the same thing under `closed -> plan = []`
   (step_decreases), so no send re-opens a port *)
Definition step (s : st) (a : act) : option st :=
  match a with
  | Send => match plan s with
            | true :: r => if Nat.ltb (qf s) capf then Some {| plan := r; qf := S (qf s); qp := qp s; closed := false |} else None
            | false :: r => if Nat.ltb (qp s) capp then Some {| plan := r; qf := qf s; qp := S (qp s); closed := false |} else None
            | [] => None
            end
  | Close => match plan s with [] => if closed s then None else Some {| plan := []; qf := qf s; qp := qp s; closed := true |} | _ => None end
  | RecvF => match qf s with S n => Some {| plan := plan s; qf := n; qp := qp s; closed := closed s |} | 0 => None end
  | RecvP => match qp s with
             | S n => if conc || (closed s && Nat.eqb (qf s) 0)
                      then Some {| plan := plan s; qf := qf s; qp := n; closed := closed s |} else None
             | 0 => None end
  end.

Fixpoint run (s : st) (l : list act) : option st :=
  match l with [] => Some s | a :: r => match step s a with Some s' => run s' r | None => None end end.

Definition final (s : st) : bool := match plan s with [] => closed s && Nat.eqb (qf s) 0 && Nat.eqb (qp s) 0 | _ => false end.
Definition enabled (s : st) : bool := existsb (fun a => match step s a with Some _ => true | None => false end) [Send; Close; RecvF; RecvP].

Definition measure (s : st) : nat := 2 * length (plan s) + qf s + qp s + (if closed s then 0 else 1).

(* also the preservation lemma of `closed -> plan = []` (hypothesis and second conclusion), which the Send case needs *)
Lemma step_decreases s a s' : (closed s = true -> plan s = []) -> step s a = Some s' ->
  measure s' < measure s /\ (closed s' = true -> plan s' = []).
Proof.
  intros I H. destruct s as [pl f p c]; unfold measure; simpl in *. destruct a; simpl in H.
  - (* Send: nothing is sent after the close, the plan is empty by then *)
    destruct c; [rewrite (I eq_refl) in H; discriminate|].
    destruct pl as [|[|] r]; [discriminate| |].
    + destruct (Nat.ltb f capf); [|discriminate]. injection H as <-. simpl. split; [lia|discriminate].
    + destruct (Nat.ltb p capp); [|discriminate]. injection H as <-. simpl. split; [lia|discriminate].
  - (* Close *) destruct pl; [|discriminate]. destruct c; [discriminate|]. injection H as <-. simpl. split; [lia|reflexivity].
  - (* RecvF *) destruct f; [discriminate|]. injection H as <-. simpl. split; [lia|exact I].
  - (* RecvP *) destruct p; [discriminate|]. destruct (conc || (c && Nat.eqb f 0)); [|discriminate]. injection H as <-. simpl. split; [lia|exact I].
Qed.

End Sink.

Theorem concurrent_progress capf capp s : 1 <= capf -> 1 <= capp -> final s = false -> enabled capf capp true s = true.
Proof.
  intros Cf Cp F. unfold enabled, final. destruct s as [pl f p c]; simpl.
  destruct f as [|f]; [|simpl; rewrite !orb_true_r; reflexivity].
  destruct p as [|p]; [|simpl; rewrite !orb_true_r; reflexivity].
  destruct pl as [|[|] r].
  - destruct c; [simpl in F; discriminate|reflexivity].
  - destruct (Nat.ltb_spec 0 capf); [reflexivity|lia].
  - destruct (Nat.ltb_spec 0 capp); [reflexivity|lia].
Qed.

Definition init (pl : list bool) : st := {| plan := pl; qf := 0; qp := 0; closed := false |}.

Example concurrent_example :
  exists s, run 1 1 true (init [false; false; true; false]) [Send; RecvP; Send; RecvP; Send; Send; RecvF; RecvP; Close] = Some s /\ final s = true.
Proof. eexists. split; [vm_compute; reflexivity|reflexivity]. Qed.

Theorem in_turn_stuck capf capp : exists l s,
  run capf capp false (init (repeat false (S capp) ++ [true])) l = Some s /\ enabled capf capp false s = false /\ final s = false.
Proof.
  exists (repeat Send capp). exists {| plan := [false; true]; qf := 0; qp := capp; closed := false |}. split.
  - assert (G : forall k q, q + k = capp ->
               run capf capp false {| plan := false :: (repeat false k ++ [true]); qf := 0; qp := q; closed := false |} (repeat Send k)
               = Some {| plan := [false; true]; qf := 0; qp := q + k; closed := false |}).
    { induction k as [|k IH]; intros q E.
      - rewrite Nat.add_0_r. reflexivity.
      - cbn [repeat run step plan qp qf app]. destruct (Nat.ltb_spec q capp); [|lia].
        rewrite (IH (S q)); [|lia]. f_equal. f_equal. lia. }
    exact (G capp 0 (Nat.add_0_l _)).
  - split; [|reflexivity]. unfold enabled. simpl. rewrite Nat.ltb_irrefl. destruct capp; reflexivity.
Qed.
