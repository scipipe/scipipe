(* What TaskFS takes from the operating system: a declared output reaches its final path by rename(2), which (within one file
   system) makes the complete file appear in one step -- ARename moves the whole temp content.  A finalization that *copies*
   onto the final path (say, as a fall-back when rename fails across file systems) makes a prefix visible first.  This file adds
   that one step to TaskFS and exhibits the state C01 and C03 exclude: a kill there leaves a partial file under the final name. *)
From Coq Require Import List.
Import ListNotations.
Require Import Result TaskFS.

Inductive cact :=
| Plain (a : act)
| CopyPart (t x : nat) (part : content).      (* the copy loop has written `part`, a proper prefix, to the final path *)

Definition cstep (c : cfg) (s : st) (a : cact) : option st :=
  match a with
  | Plain a => step c s a
  | CopyPart t x part =>
    if exited s then None else
    match pcs s t with
    | Ren (y :: _) => if Nat.eqb x y
                      then Some {| fin := upd (fin s) x (Some part); tmp := tmp s; tdir := tdir s; pcs := pcs s; val := val s; exited := false |}
                      else None
    | _ => None
    end
  end.

Fixpoint crun (c : cfg) (s : st) (l : list cact) : option st :=
  match l with [] => Some s | a :: r => match cstep c s a with Some s' => crun c s' r | None => None end end.

Definition one : cfg := {| nt := 1; tk := fun _ => {| tin := []; tout := [0]; sem := fun _ => Some [42] |} |}.

(* the command succeeded with 42; the program is killed (no further step) while the copy has put 4 at the final path *)
Theorem copying_finalize_refuted :
  exists s, crun one (init one (fun _ => None) (fun _ => false))
                 [Plain (AStart 0); Plain (AChkTemp 0); Plain (AChkOut 0); Plain (AMkTemp 0); Plain (ACmdOk 0 []); Plain (AEnsure 0 [0]);
                  CopyPart 0 0 4] = Some s
            /\ fin s 0 = Some 4 /\ val s 0 = [42] /\ sem (tk one 0) [] = Some [42].
Proof. eexists. split; [vm_compute; reflexivity|]. repeat split. Qed.
