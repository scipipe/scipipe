(* C17 for any number of streaming pairs that share the workflow's task slots.  Each pair is the machine of Stream.v; the
   only coupling between pairs is the shared slot counter: a global step picks a pair and runs one step of the pair machine
   on the pair's state with the shared counter put in place of its own. *)
From Coq Require Import List Lia.
Import ListNotations.
From SP Require Lib.
From SP Require Import Stream StreamLive.

Definition set_tok (s : st) (t : nat) : st :=
  {| fifo := fifo s; wclosed := wclosed s; buf := buf s; sent := sent s; got := got s; pp := pp s; cp := cp s;
     tokens := t; paudit := paudit s; outfile := outfile s |}.

Record gcfg := { cfgs : list cfg; gslots : nat }.
Record gst := { pairs : list st; gtok : nat }.

(* a pair's cfg as its machine is run: the pair's own slots field is not read, the shared gslots stands in its place *)
Definition pcfg (g : gcfg) (c : cfg) : cfg :=
  {| payload := payload c; pipecap := pipecap c; slots := gslots g; skip := skip c; old := old c |}.

Definition ginit (g : gcfg) : gst := {| pairs := map (fun c => init (pcfg g c)) (cfgs g); gtok := 0 |}.

Fixpoint upd {A} (i : nat) (x : A) (l : list A) : list A :=
  match l, i with
  | [], _ => []
  | _ :: r, 0 => x :: r
  | y :: r, S j => y :: upd j x r
  end.

Definition gstep (g : gcfg) (s : gst) (ia : nat * act) : option gst :=
  let (i, a) := ia in
  match nth_error (cfgs g) i, nth_error (pairs s) i with
  | Some c, Some p =>
      match step (pcfg g c) (set_tok p (gtok s)) a with
      | Some p' => Some {| pairs := upd i p' (pairs s); gtok := tokens p' |}
      | None => None
      end
  | _, _ => None
  end.

Fixpoint grun (g : gcfg) (s : gst) (l : list (nat * act)) : option gst :=
  match l with [] => Some s | a :: r => match gstep g s a with Some s' => grun g s' r | None => None end end.

Definition sum (l : list nat) : nat := fold_right Nat.add 0 l.

Definition PInv (g : gcfg) (c : cfg) (p : st) : Prop := DInv (pcfg g c) p /\ LInvO p.
Definition GInv (g : gcfg) (s : gst) : Prop :=
  Forall2 (PInv g) (cfgs g) (pairs s) /\ gtok s = sum (map held (pairs s)).

Lemma ginit_inv g : GInv g (ginit g).
Proof.
  unfold GInv, ginit. split.
  - induction (cfgs g) as [|c r IH]; constructor; auto. split; [apply init_dinv|apply init_linvO].
  - induction (cfgs g) as [|c r IH]; auto.
Qed.

Lemma forall2_upd {A B} (R : A -> B -> Prop) cs : forall ps i c p',
  Forall2 R cs ps -> nth_error cs i = Some c -> R c p' -> Forall2 R cs (upd i p' ps).
Proof.
  intros ps i c p' F. revert i. induction F as [|c0 p0 cs ps H F IH]; intros [|i]; try discriminate.
  - intros [= ->] Hr. constructor; assumption.
  - intros Hc Hr. constructor; auto.
Qed.

Lemma forall2_nth {A B} (R : A -> B -> Prop) cs : forall ps i c p,
  Forall2 R cs ps -> nth_error cs i = Some c -> nth_error ps i = Some p -> R c p.
Proof.
  intros ps i c p F. revert i. induction F as [|c0 p0 cs ps H F IH]; intros [|i]; try discriminate.
  - intros [= ->] [= ->]. exact H.
  - exact (IH i).
Qed.

Lemma forall2_len {A B} (R : A -> B -> Prop) cs ps : Forall2 R cs ps -> length cs = length ps.
Proof. induction 1; simpl; auto. Qed.

Lemma sum_upd (f : st -> nat) ps : forall i p p', nth_error ps i = Some p ->
  sum (map f (upd i p' ps)) + f p = sum (map f ps) + f p'.
Proof.
  induction ps as [|q ps IH]; intros [|i] p p'; simpl; try discriminate.
  - intros [= ->]. lia.
  - intros H. specialize (IH i p p' H). lia.
Qed.

Lemma sum_nth_le (f : st -> nat) ps : forall i p, nth_error ps i = Some p -> f p <= sum (map f ps).
Proof.
  induction ps as [|q ps IH]; intros [|i] p; simpl; try discriminate.
  - intros [= ->]. lia.
  - intros H. specialize (IH i p H). lia.
Qed.

(* set_tok and pcfg change only tokens and slots, which DInv, LInvO, held, demand and measure do not read: this lemma and
   linvO_set_tok, held_set_tok, demand_pcfg, measure_pcfg, measure_pcfg' hold by conversion (LInvO field by field) *)
Lemma dinv_set_tok c p t : DInv c p -> DInv c (set_tok p t).
Proof. intros H. exact H. Qed.
Lemma linvO_set_tok p t : LInvO p -> LInvO (set_tok p t).
Proof. intros [A B C]. constructor; assumption. Qed.
Lemma held_set_tok p t : held (set_tok p t) = held p.
Proof. reflexivity. Qed.

Lemma gstep_pair {g s i a s'} : gstep g s (i, a) = Some s' ->
  exists c p p', nth_error (cfgs g) i = Some c /\ nth_error (pairs s) i = Some p /\
    step (pcfg g c) (set_tok p (gtok s)) a = Some p' /\ s' = {| pairs := upd i p' (pairs s); gtok := tokens p' |}.
Proof.
  unfold gstep. destruct (nth_error (cfgs g) i) as [c|]; [|discriminate]. destruct (nth_error (pairs s) i) as [p|]; [|discriminate].
  destruct (step (pcfg g c) (set_tok p (gtok s)) a) as [p'|] eqn:S; intros [= <-]. exists c, p, p'. auto.
Qed.

Lemma gstep_inv g s ia s' : GInv g s -> gstep g s ia = Some s' -> GInv g s'.
Proof.
  intros [F T] H. destruct ia as [i a]. destruct (gstep_pair H) as (c & p & p' & Hc & Hp & S & ->).
  destruct (forall2_nth _ _ _ _ _ _ F Hc Hp) as [D O].
  split; simpl.
  - apply (forall2_upd _ _ _ _ c _ F Hc). split.
    + exact (step_dinv _ _ _ _ (dinv_set_tok _ _ _ D) S).
    + exact (step_linvO _ _ _ _ (linvO_set_tok _ _ O) S).
  - (* the pair holds no more than the counter says, so the pair's token accounting applies *)
    pose proof (sum_nth_le held _ _ _ Hp) as G. rewrite <- T in G.
    pose proof (step_tokens _ (set_tok p (gtok s)) _ _ G S) as E. rewrite held_set_tok in E. simpl in E.
    pose proof (sum_upd held _ _ _ p' Hp). lia.
Qed.

Lemma grun_inv g l : forall s s', GInv g s -> grun g s l = Some s' -> GInv g s'.
Proof. apply (Lib.run_invariant (gstep g) (grun g)); [reflexivity|reflexivity|exact (gstep_inv g)]. Qed.

Theorem pairs_bytes g l s i c p :
  grun g (ginit g) l = Some s -> nth_error (cfgs g) i = Some c -> nth_error (pairs s) i = Some p ->
  skip c = false -> cp p = CDone -> outfile p = Some (payload c).
Proof.
  intros R Hc Hp K C. destruct (grun_inv g l _ _ (ginit_inv g) R) as [F _].
  destruct (forall2_nth _ _ _ _ _ _ F Hc Hp) as [D _]. now apply (dinv_done D C).
Qed.

Theorem pairs_rerun_untouched g l s i c p :
  grun g (ginit g) l = Some s -> nth_error (cfgs g) i = Some c -> nth_error (pairs s) i = Some p ->
  skip c = true -> outfile p = Some (old c).
Proof.
  intros R Hc Hp K. destruct (grun_inv g l _ _ (ginit_inv g) R) as [F _].
  destruct (forall2_nth _ _ _ _ _ _ F Hc Hp) as [D _]. exact (proj1 (dinv_skipped D K)).
Qed.

Definition total_demand (g : gcfg) : nat := sum (map demand (cfgs g)).

Lemma demand_pcfg g c : demand (pcfg g c) = demand c.
Proof. reflexivity. Qed.

Lemma sum_held_lt g cs : forall ps i c p,
  Forall2 (PInv g) cs ps -> nth_error cs i = Some c -> nth_error ps i = Some p -> held p < demand c ->
  sum (map held ps) < sum (map demand cs).
Proof.
  assert (LE : forall cs ps, Forall2 (PInv g) cs ps -> sum (map held ps) <= sum (map demand cs)).
  { induction 1 as [|c p cs' ps' [D _] F IH]; simpl; auto. pose proof (held_le_demand D) as L. rewrite demand_pcfg in L. lia. }
  intros ps i c p F. revert i. induction F as [|c0 p0 cs ps [D _] F IH]; intros [|i]; simpl; try discriminate.
  - intros [= ->] [= ->] Hlt. pose proof (LE _ _ F). lia.
  - intros Hc Hp Hlt. specialize (IH i Hc Hp Hlt). pose proof (held_le_demand D) as L. rewrite demand_pcfg in L. lia.
Qed.

Definition unfinished (p : st) : Prop := fifo p = true \/ pp p <> PDone \/ cp p <> CDone.

Theorem pairs_progress g l s i p :
  total_demand g <= gslots g -> Forall (fun c => 1 <= pipecap c) (cfgs g) ->
  grun g (ginit g) l = Some s -> nth_error (pairs s) i = Some p -> unfinished p ->
  exists a, gstep g s (i, a) <> None.
Proof.
  intros Hs Hcap R Hp Hun. destruct (grun_inv g l _ _ (ginit_inv g) R) as [F T].
  destruct (nth_error (cfgs g) i) as [c|] eqn:Hc.
  2: { (* there are as many configurations as pairs *)
    apply nth_error_None in Hc. rewrite (forall2_len _ _ _ F) in Hc. apply nth_error_None in Hc. congruence. }
  destruct (forall2_nth _ _ _ _ _ _ F Hc Hp) as [D O].
  destruct (pair_progress (pcfg g c) (set_tok p (gtok s))) as [a Pa].
  - apply linvO_set_tok. exact O.
  - exact (Lib.Forall_nth_error _ _ _ _ Hcap Hc).
  - (* a waiting task finds a free slot: its pair holds less than its demand, no pair holds more *)
    simpl. intros W. pose proof (held_lt_demand D W) as Hlt. rewrite demand_pcfg in Hlt.
    pose proof (sum_held_lt g _ _ _ _ _ F Hc Hp Hlt). unfold total_demand in Hs. lia.
  - exact Hun.
  - exists a. unfold gstep. rewrite Hc, Hp.
    destruct (step (pcfg g c) (set_tok p (gtok s)) a); [discriminate|congruence].
Qed.

(* with pairs_terminate: every execution is finite and ends with every pair done and every pipe removed *)
Theorem pairs_maximal_run_completes g l s :
  total_demand g <= gslots g -> Forall (fun c => 1 <= pipecap c) (cfgs g) ->
  grun g (ginit g) l = Some s -> (forall ia, gstep g s ia = None) ->
  forall i p, nth_error (pairs s) i = Some p -> pp p = PDone /\ cp p = CDone /\ fifo p = false.
Proof.
  intros Hs Hcap R Hmax i p Hp.
  assert (N : ~ unfinished p).
  { intros U. destruct (pairs_progress g l s i p Hs Hcap R Hp U) as [a Ha]. apply Ha, Hmax. }
  unfold unfinished in N. repeat split.
  - destruct (pp p); try reflexivity; destruct N; right; left; discriminate.
  - destruct (cp p); try reflexivity; destruct N; right; right; discriminate.
  - destruct (fifo p); try reflexivity; destruct N; left; reflexivity.
Qed.

Fixpoint gmeasure (cs : list cfg) (ps : list st) : nat :=
  match cs, ps with
  | c :: cr, p :: pr => measure c p + gmeasure cr pr
  | _, _ => 0
  end.

Lemma measure_pcfg g c p t : measure (pcfg g c) (set_tok p t) = measure c p.
Proof. reflexivity. Qed.
Lemma measure_pcfg' g c p : measure (pcfg g c) p = measure c p.
Proof. reflexivity. Qed.

Lemma gmeasure_upd cs : forall ps i c p p', nth_error cs i = Some c -> nth_error ps i = Some p ->
  measure c p' < measure c p -> gmeasure cs (upd i p' ps) < gmeasure cs ps.
Proof.
  induction cs as [|c0 cs IH]; intros [|q ps] [|i] c p p'; simpl; try discriminate.
  - intros [= ->] [= ->] Hlt. lia.
  - intros Hc Hp Hlt. specialize (IH ps i c p p' Hc Hp Hlt). lia.
Qed.

Theorem pairs_terminate g s ia s' : gstep g s ia = Some s' -> gmeasure (cfgs g) (pairs s') < gmeasure (cfgs g) (pairs s).
Proof.
  intros H. destruct ia as [i a]. destruct (gstep_pair H) as (c & p & p' & Hc & Hp & S & ->).
  eapply gmeasure_upd; eauto.
  pose proof (stream_step_decreases _ _ _ _ S) as M. rewrite measure_pcfg, measure_pcfg' in M. exact M.
Qed.

(* non-vacuity: two pairs (one executing, one skipped and draining) on three slots, interleaved to completion *)
Definition g2 : gcfg :=
  {| cfgs := [ {| payload := [1;2;3]; pipecap := 2; slots := 0; skip := false; old := [] |};
               {| payload := [7;8]; pipecap := 1; slots := 0; skip := true; old := [9] |} ];
     gslots := 3 |}.
Definition sched2 : list (nat * act) :=
  [(0, AForward); (1, AForward); (0, PAcquire); (1, PAcquire); (0, CAcquire); (0, AOpenBoth); (1, AOpenBoth);
   (0, PWrite); (1, PWrite); (0, PWrite); (1, CRead); (0, CRead); (1, PWrite); (0, PWrite); (0, PExit); (1, PExit);
   (0, CRead); (1, CRead); (0, CRead); (1, CEof); (0, CEof); (0, PSetAudit); (0, CAudit); (0, CFinalize); (0, CRelease);
   (0, CDoneA); (0, PRelease); (1, PSetAudit); (1, PRelease); (0, PDoneA); (1, PDoneA); (0, ARemoveFifo); (1, ARemoveFifo)].
Example pairs_example :
  total_demand g2 <= gslots g2 /\
  match grun g2 (ginit g2) sched2 with
  | Some s => map outfile (pairs s) = [Some [1;2;3]; Some [9]] /\ map fifo (pairs s) = [false; false] /\ gtok s = 0
              /\ map cp (pairs s) = [CDone; CDone]
  | None => False
  end.
Proof. vm_compute. auto. Qed.

(* the guard is necessary: two executing pairs on two slots deadlock (both producers hold a slot and wait in open() for
   their consumers, which wait for a slot) *)
Definition g3 : gcfg :=
  {| cfgs := [ {| payload := [1]; pipecap := 1; slots := 0; skip := false; old := [] |};
               {| payload := [2]; pipecap := 1; slots := 0; skip := false; old := [] |} ];
     gslots := 2 |}.
Definition gstuck (g : gcfg) (s : gst) : bool :=
  forallb (fun i => forallb (fun a => match gstep g s (i, a) with None => true | Some _ => false end) all_acts) (seq 0 (length (cfgs g))).
Example pairs_too_few_slots_refuted :
  match grun g3 (ginit g3) [(0, AForward); (1, AForward); (0, PAcquire); (1, PAcquire)] with
  | Some s => gstuck g3 s = true /\ map cp (pairs s) = [CWaitSlot; CWaitSlot]
  | None => False
  end.
Proof. vm_compute. split; reflexivity. Qed.
