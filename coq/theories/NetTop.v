(* The network run together with its history variables: the invariants along every schedule, and what they say of a
   state in which every process has finished (nothing left over; the same tasks whatever the schedule). *)
From Coq Require Import List Lia.
Import ListNotations.
From SP Require Import NetA Inv Pres Top Ghost GhostPres Early.

Section NetTop.
Variable c : cfg.
Variable len : nat -> nat.
Variable gc : gcfg.
Hypothesis WF : wf c len.

Fixpoint grun (s : st) (g : gst) (sched : list act) : option (st * gst) :=
  match sched with
  | [] => Some (s, g)
  | a :: r => match step c s a with Some s' => grun s' (gstep c gc s g a) r | None => None end
  end.

Lemma grun_run s g sched s' g' : grun s g sched = Some (s', g') -> run c s sched = Some s'.
Proof.
  revert s g. induction sched as [|a r IH]; simpl; intros s g H.
  - inversion H; reflexivity.
  - destruct (step c s a); [|discriminate]. eapply IH; eauto.
Qed.

Lemma ginit_inv : KInv c gc (init c) ginit.
Proof. constructor; auto. contradiction. Qed.

Definition AllInv (s : st) (g : gst) : Prop := Inv c len s /\ Inv2 c s /\ GInv c gc s g.

(* what the executions maintain: of the histories the stronger statement, that they are initial segments of the
   network's streams; the equations of AllInv follow *)
Definition RunInv (s : st) (g : gst) : Prop := Inv c len s /\ Inv2 c s /\ KInv c gc s g.

Lemma run_all s g : RunInv s g -> AllInv s g.
Proof. intros (I1 & I2 & K). split; [|split]; auto. now apply kahn_ginv with len. Qed.

Theorem grun_inv sched : forall s g s' g', RunInv s g -> sched_ok c sched -> grun s g sched = Some (s', g') -> RunInv s' g'.
Proof.
  induction sched as [|a r IH]; simpl; intros s g s' g' HI Hok H.
  - inversion H; subst; assumption.
  - destruct Hok as [Ha Hr]. destruct (step c s a) as [s1|] eqn:E; [|discriminate].
    destruct HI as [I1 [I2 I3]].
    apply (IH s1 (gstep c gc s g a) s' g'); auto.
    split; [|split].
    + eapply step_inv; eauto.
    + eapply step_inv2; eauto.
    + eapply gstep_inv; eauto.
Qed.

Theorem reachable_run sched s g : sched_ok c sched -> grun (init c) ginit sched = Some (s, g) -> RunInv s g.
Proof.
  intros Hok H. eapply grun_inv; eauto. split; [apply init_inv|split; [apply init_inv2|apply ginit_inv]].
Qed.

Theorem reachable_inv sched s g : sched_ok c sched -> grun (init c) ginit sched = Some (s, g) -> AllInv s g.
Proof. intros Hok H. exact (run_all s g (reachable_run sched s g Hok H)). Qed.

Definition final (s : st) : Prop := forall v, v < nn c -> rn (ns s v) = RFin.

Theorem final_complete s : Inv c len s -> final s ->
  (forall v, v < nn c -> cN (ns s v) = len v /\ eN (ns s v) = len v /\ fl (ns s v) = []) /\
  (forall e, e < E c -> snt (es s e) = len (esrc c e) /\ rcv (es s e) = snt (es s e)).
Proof.
  intros HI HF.
  assert (Hnode : forall v, v < nn c -> cN (ns s v) = len v /\ eN (ns s v) = len v /\ fl (ns s v) = []).
  { intros v Hv. pose proof (proj1 HI v Hv) as NI. destruct (ni_fin NI (HF v Hv)) as (D & Fl & E).
    pose proof (ni_done NI D). repeat split; auto; lia. }
  split; [exact Hnode|]. intros e He.
  pose proof (src_node WF He) as Hu. destruct (wf_topo c len WF e He) as [_ Hd].
  pose proof (proj2 HI e He) as EI.
  (* the source has finished, so the edge is closed and has carried the whole stream; the destination has taken it all *)
  pose proof (closed_full WF HI He (proj2 (ei_clo EI) (HF _ Hu))) as S.
  pose proof (ei_rcv EI) as R. destruct (Hnode _ Hd) as (C & _ & _).
  destruct (ni_fin (proj1 HI _ Hd) (HF _ Hd)) as (D & _ & _).
  unfold hand, rx in R. rewrite D in R. rewrite (wf_bal c len WF e He). lia.
Qed.

Lemma final_hist s g e : AllInv s g -> final s -> e < E c ->
  hist g e = map (outf gc (esrc c e) e) (crt g (esrc c e)).
Proof.
  intros [I1 [I2 I3]] HF He. rewrite (g_emit c gc s g I3 e He).
  destruct (final_complete s I1 HF) as [Hn Hed]. destruct (Hed e He) as [Hs _].
  pose proof (src_node WF He) as Hu.
  destruct (Hn _ Hu) as [Hc _]. rewrite Hs, <- Hc, <- (g_crtn c gc s g I3 _ Hu). now rewrite firstn_all.
Qed.

(* schedule independence (Kahn's principle, C04_deterministic): both runs created the tasks of the network's streams *)
Theorem final_tasks_deterministic s1 g1 s2 g2 :
  RunInv s1 g1 -> final s1 -> RunInv s2 g2 -> final s2 ->
  forall v, v < nn c -> crt g1 v = crt g2 v.
Proof.
  intros (I1 & _ & K1) F1 (I2 & _ & K2) F2 v Hv.
  destruct (proj1 (final_complete s1 I1 F1) v Hv) as [C1 _]. destruct (proj1 (final_complete s2 I2 F2) v Hv) as [C2 _].
  rewrite (k_crt c gc s1 g1 K1 v Hv), (k_crt c gc s2 g2 K2 v Hv). congruence.
Qed.

(* the recursion the sequential reference evaluator computes (WfModel.eval_proc: transpose of the in-columns), so the
   network and the evaluator create the same tasks (PropC04.C04_zip_equation) *)
Theorem final_zip_equation s g v k : AllInv s g -> final s -> v < nn c -> k < len v ->
  nth k (crt g v) [] =
  match slen c v with
  | Some _ => [nth k (sitems gc v) 0]
  | None => map (fun y => nth k (map (outf gc (esrc c y) y) (crt g (esrc c y))) 0) (ins c v)
  end.
Proof.
  intros A F Hv Hk. pose proof A as [I1 [_ G]].
  destruct (final_complete s I1 F) as [Hn _]. destruct (Hn v Hv) as [Hc _].
  rewrite (g_crt c gc s g G v k Hv) by lia. unfold tuple_of. destruct (slen c v); [reflexivity|].
  apply map_ext_in. intros y Hy. apply in_ins in Hy. destruct Hy as [HyE _].
  now rewrite (final_hist s g y A F HyE).
Qed.

End NetTop.
Arguments reachable_run {c len gc} WF {sched s g}. Arguments reachable_inv {c len gc} WF {sched s g}.
