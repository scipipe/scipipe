(* A process's queue of started tasks and the slots (C07, work conservation across the queue).

   Process.Run spawns a task as soon as it is formed and keeps it in a FIFO until every earlier task has been forwarded; a task
   holds a slot only between acquiring it and finishing.  One process, one-core tasks, K slots.  `capped = false` is the code;
   `capped = true` is a Run loop that stops accepting new tasks while the FIFO is as long as the number of slots. *)
From Coq Require Import List Lia Bool PeanoNat.
Import ListNotations.

Inductive tst := Spawned | Running | Finished.     (* of a task in the FIFO: waiting for a slot / holding one / done, not yet forwarded *)

Record st := { todo : nat;            (* formed tasks not yet spawned *)
               fifo : list tst;       (* spawned and not yet forwarded, oldest first *)
               free : nat }.          (* free slots *)

Inductive act := Spawn | Acquire (i : nat) | Finish (i : nat) | Forward.

Fixpoint set_nth (l : list tst) (i : nat) (x : tst) : list tst :=
  match l, i with
  | [], _ => []
  | _ :: r, 0 => x :: r
  | y :: r, S j => y :: set_nth r j x
  end.

Definition step (K : nat) (capped : bool) (s : st) (a : act) : option st :=
  match a with
  | Spawn => match todo s with
             | S n => if capped && Nat.leb K (length (fifo s)) then None
                      else Some {| todo := n; fifo := fifo s ++ [Spawned]; free := free s |}
             | 0 => None end
  | Acquire i => match nth_error (fifo s) i, free s with
                 | Some Spawned, S f => Some {| todo := todo s; fifo := set_nth (fifo s) i Running; free := f |}
                 | _, _ => None end
  | Finish i => match nth_error (fifo s) i with
                | Some Running => Some {| todo := todo s; fifo := set_nth (fifo s) i Finished; free := S (free s) |}
                | _ => None end
  | Forward => match fifo s with Finished :: r => Some {| todo := todo s; fifo := r; free := free s |} | _ => None end
  end.

(* PropC07.C07_queue_work_conserving *)
Theorem uncapped_work_conserving K s : 0 < todo s -> 0 < free s ->
  exists s1 s2, step K false s Spawn = Some s1 /\ step K false s1 (Acquire (length (fifo s))) = Some s2 /\ free s2 = free s - 1.
Proof.
  intros T F. destruct s as [t q f]; simpl in *. destruct t as [|n]; [lia|]. destruct f as [|f']; [lia|].
  eexists. eexists. split; [reflexivity|]. simpl.
  (* the new task is the last of the FIFO *)
  rewrite nth_error_app2, Nat.sub_diag by lia. split; [reflexivity|simpl; lia].
Qed.

(* PropC07.C07_capped_queue_refuted *)
Theorem capped_idles_a_slot :
  let s := {| todo := 1; fifo := [Running; Finished]; free := 1 |} in
  step 2 true s Spawn = None /\ step 2 true s Forward = None /\ (forall i, step 2 true s (Acquire i) = None) /\
  0 < todo s /\ 0 < free s.
Proof.
  simpl. repeat split; try lia. intros i. destruct i as [|[|[|i]]]; reflexivity.
Qed.

(* and that state is reached from the start: three one-core tasks on two slots, the second one quick *)
Example capped_state_reachable :
  let s0 := {| todo := 3; fifo := []; free := 2 |} in
  exists s, fold_left (fun o a => match o with Some s => step 2 true s a | None => None end)
                      [Spawn; Spawn; Acquire 0; Acquire 1; Finish 1] (Some s0) = Some s
            /\ s = {| todo := 1; fifo := [Running; Finished]; free := 1 |}.
Proof. eexists. split; reflexivity. Qed.
