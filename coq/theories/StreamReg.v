(* A task with a streamed and a regular output (finding D23).

   Process.Run sends the streamed out-IPs of a task BEFORE the task executes (the reader has to be there for the FIFO to
   open) and its regular out-IPs AFTER it has finished; a downstream process forms a task only when every in-port has
   delivered; a command that writes a FIFO ends only after a reader has opened it.  One producer task, one consumer task;
   the consumer reads the stream, and -- if `both` -- also the regular output. *)
From Coq Require Import List Lia Bool.
Import ListNotations.
From SP Require Import Lib.

Inductive ppc := PFormed | PStreamSent | PRunning | PWritten | PFinished | PRegSent.
Inductive cpc := CWait | CRunning | CDone.

Record st := { pp : ppc; cp : cpc; gotS : bool; gotR : bool }.

Inductive act :=
| SendStream      (* producer's process: the streamed out-IP goes downstream, then the task is started *)
| StartCmd        (* producer's command starts: blocks in open() on the FIFO *)
| WriteAll        (* the FIFO is open on both sides: the command writes and exits *)
| Finish          (* producer task finalizes *)
| SendReg         (* producer's process: the regular out-IP goes downstream *)
| Form            (* consumer's process has an IP on every in-port: task formed, command started, opens the FIFO *)
| ReadAll.        (* consumer's command reads to EOF and (for `both`) the regular file, exits, finalizes *)

Definition init : st := {| pp := PFormed; cp := CWait; gotS := false; gotR := false |}.

Definition step (both : bool) (s : st) (a : act) : option st :=
  match a with
  | SendStream => match pp s with PFormed => Some {| pp := PStreamSent; cp := cp s; gotS := true; gotR := gotR s |} | _ => None end
  | StartCmd => match pp s with PStreamSent => Some {| pp := PRunning; cp := cp s; gotS := gotS s; gotR := gotR s |} | _ => None end
  | WriteAll => match pp s, cp s with
                | PRunning, CRunning => Some {| pp := PWritten; cp := cp s; gotS := gotS s; gotR := gotR s |}
                | _, _ => None end
  | Finish => match pp s with PWritten => Some {| pp := PFinished; cp := cp s; gotS := gotS s; gotR := gotR s |} | _ => None end
  | SendReg => match pp s with PFinished => Some {| pp := PRegSent; cp := cp s; gotS := gotS s; gotR := true |} | _ => None end
  | Form => match cp s with
            | CWait => if gotS s && (negb both || gotR s) then Some {| pp := pp s; cp := CRunning; gotS := gotS s; gotR := gotR s |} else None
            | _ => None end
  | ReadAll => match cp s, pp s with
               | CRunning, (PWritten | PFinished | PRegSent) => Some {| pp := pp s; cp := CDone; gotS := gotS s; gotR := gotR s |}
               | _, _ => None end
  end.

Fixpoint run (both : bool) (s : st) (l : list act) : option st :=
  match l with [] => Some s | a :: r => match step both s a with Some s' => run both s' r | None => None end end.

Definition final (s : st) : bool := match pp s, cp s with PRegSent, CDone => true | _, _ => false end.

Definition all_acts := [SendStream; StartCmd; WriteAll; Finish; SendReg; Form; ReadAll].
Definition stuck (both : bool) (s : st) : bool := forallb (fun a => match step both s a with None => true | Some _ => false end) all_acts.

Lemma all_acts_complete a : In a all_acts.
Proof. destruct a; simpl; tauto. Qed.

Definition written (p : ppc) : bool := match p with PWritten | PFinished | PRegSent => true | _ => false end.

Inductive Step (both : bool) : st -> act -> st -> Prop :=
| SSendStream q gs gr : Step both (Build_st PFormed q gs gr) SendStream (Build_st PStreamSent q true gr)
| SStartCmd q gs gr : Step both (Build_st PStreamSent q gs gr) StartCmd (Build_st PRunning q gs gr)
| SWriteAll gs gr : Step both (Build_st PRunning CRunning gs gr) WriteAll (Build_st PWritten CRunning gs gr)
| SFinish q gs gr : Step both (Build_st PWritten q gs gr) Finish (Build_st PFinished q gs gr)
| SSendReg q gs gr : Step both (Build_st PFinished q gs gr) SendReg (Build_st PRegSent q gs true)
| SForm p gr : (both = true -> gr = true) -> Step both (Build_st p CWait true gr) Form (Build_st p CRunning true gr)
| SReadAll p gs gr : written p = true -> Step both (Build_st p CRunning gs gr) ReadAll (Build_st p CDone gs gr).

Lemma step_Step {both s a s'} : step both s a = Some s' -> Step both s a s'.
Proof.
  destruct s as [p q gs gr], a.
  1,2,4,5: (* SendStream, StartCmd, Finish, SendReg look at pp alone *) destruct p; intros [= <-]; constructor.
  - (* WriteAll *) destruct p, q; intros [= <-]. constructor.
  - (* Form *) destruct q, gs; try discriminate. destruct both, gr; intros [= <-]; constructor; congruence.
  - (* ReadAll *) destruct q, p; intros [= <-]; constructor; reflexivity.
Qed.

Definition Inv (s : st) : Prop := (pp s <> PFormed -> gotS s = true) /\ (cp s = CDone -> written (pp s) = true).

Lemma step_inv both s a s' : Inv s -> step both s a = Some s' -> Inv s'.
Proof.
  intros [I1 I2] H. destruct (step_Step H) as [| | | | | |p gs gr W].
  - (* SendStream *) split; [reflexivity|exact I2].
  - (* StartCmd *) split; [intros _; apply I1; discriminate|exact I2].
  - (* WriteAll *) split; [intros _; apply I1; discriminate|discriminate].
  - (* Finish *) split; [intros _; apply I1; discriminate|reflexivity].
  - (* SendReg *) split; [intros _; apply I1; discriminate|reflexivity].
  - (* Form *) split; [reflexivity|discriminate].
  - (* ReadAll *) split; [exact I1|intros _; exact W].
Qed.

Theorem stream_only_progress l s : run false init l = Some s -> final s = false -> stuck false s = false.
Proof.
  intros R F. assert (I : Inv s).
  { revert R. apply (run_invariant (step false) (run false)); [reflexivity|reflexivity|exact (step_inv false)|].
    split; simpl; [congruence|discriminate]. }
  destruct I as [I1 I2]. destruct s as [p q gs gr]; simpl in *.
  destruct p; try reflexivity.
  - (* PRunning: the consumer can form its task or read, and is not done *)
    rewrite I1 by discriminate. destruct q; [reflexivity|reflexivity|discriminate (I2 eq_refl)].
  - (* PRegSent *) rewrite I1 by discriminate. destruct q; [reflexivity|reflexivity|discriminate F].
Qed.

Definition measure (s : st) : nat :=
  (match pp s with PFormed => 5 | PStreamSent => 4 | PRunning => 3 | PWritten => 2 | PFinished => 1 | PRegSent => 0 end)
  + (match cp s with CWait => 2 | CRunning => 1 | CDone => 0 end).

Theorem step_decreases both s a s' : step both s a = Some s' -> measure s' < measure s.
Proof. intros H. destruct (step_Step H); unfold measure; simpl; lia. Qed.

Theorem stream_only_example :
  exists s, run false init [SendStream; StartCmd; Form; WriteAll; ReadAll; Finish; SendReg] = Some s /\ final s = true.
Proof. eexists. split; [vm_compute; reflexivity|reflexivity]. Qed.

(* the regular IP is not sent, so the consumer never leaves CWait, so the producer never gets past PRunning *)
Definition Waits (s : st) : Prop := gotR s = false /\ cp s = CWait /\ (pp s = PFormed \/ pp s = PStreamSent \/ pp s = PRunning).

Theorem both_never_completes l s : run true init l = Some s -> cp s = CWait /\ (pp s = PFormed \/ pp s = PStreamSent \/ pp s = PRunning).
Proof.
  intros R. cut (Waits s); [unfold Waits; tauto|].
  revert R. apply (run_invariant (step true) (run true)); [reflexivity|reflexivity| |unfold Waits; auto].
  clear. intros s a s' (G & C & P) H. unfold Waits.
  destruct (step_Step H) as [| | | | |p gr E|].
  - (* SendStream *) auto.
  - (* StartCmd *) auto.
  - (* WriteAll *) discriminate C.
  - (* Finish *) destruct P as [P|[P|P]]; discriminate P.
  - (* SendReg *) destruct P as [P|[P|P]]; discriminate P.
  - (* Form: needs the regular IP *) rewrite (E eq_refl) in G. discriminate G.
  - (* ReadAll *) discriminate C.
Qed.

Theorem both_is_stuck :
  exists s, run true init [SendStream; StartCmd] = Some s /\ stuck true s = true /\ final s = false.
Proof. eexists. split; [vm_compute; reflexivity|]. split; reflexivity. Qed.

Corollary both_refuted l s : run true init l = Some s -> final s = false.
Proof. intros R. destruct (both_never_completes l s R) as [C _]. unfold final. rewrite C. destruct (pp s); reflexivity. Qed.
