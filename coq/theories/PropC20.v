(* C20 -- Audit report conversion is lossless.
   Model: Report -- records with an ID, a start time and upstream records; `extract` is extractAuditInfosByID (a map keyed by
   ID, later entries overwrite), `rsort` is sortAuditInfosByStartTime (records ordered by start time, ties by ID).
   Tie: T2 through the scipipe binary (no C20_code_conforms: the two functions, in cmd/scipipe, have no skeleton): the
   extracted `report` against the (process, ID) sequence of audit2html / audit2tex / audit2bash on generated trees, and
   generated scripts are executed (DESIGN 7, C20); T1 has only the call cones of the library functions through which the
   reports load the records (C20_cone_conforms). *)
From Coq Require Import List Bool Sorted.
Import ListNotations.
From SP Require Import Report.
From SP Require Import Skel Gen ExpectedCones.
From SP Require Result TaskFS TInv Glue Cor TaskTop Bash.

(* flattening lists exactly the IDs that occur anywhere in the tree -- whatever the depth, the fan-in, or the sharing of
   ancestors reached through several paths ... *)
Theorem C20_flatten : forall (r : rec) (x : nat), In x (keys (extract r)) <-> In x (ids r).
Proof. exact Report.extract_ids. Qed.

(* ... each exactly once *)
Theorem C20_flatten_once : forall r : rec, NoDup (keys (extract r)).
Proof. exact Report.extract_nodup. Qed.

(* the report lists every task of the lineage ... *)
Theorem C20_report_complete : forall (r : rec) (x : nat), In x (map rid (report r)) <-> In x (ids r).
Proof. exact Report.report_ids. Qed.

(* ... exactly once ... *)
Theorem C20_report_once : forall r : rec, NoDup (map rid (report r)).
Proof. exact Report.report_nodup. Qed.

(* ... ordered by start time; equal (also zero) start times do not lose anybody: ties are ordered by ID *)
Theorem C20_report_sorted : forall r : rec, Sorted rle (report r).
Proof. exact Report.report_sorted. Qed.

(* a listing through a map keyed by start time (sortAuditInfosByStartTime before the repair) loses a record and lists
   another twice when two records share a start time: finding D10 *)
Theorem C20_ties_refuted_before_repair :
  let a := Rec 1 5 100 [] in let b := Rec 2 5 200 [] in listing [a; b] = [Some b; Some b].
Proof. exact Report.C20_ties_refuted. Qed.

(* the generated Bash script: one guarded command per listed task, in report order ("if an output exists: skip; else run").
   For every task list (any DAG, in an order in which no task reads what it or a later task writes -- the order of start
   times, since a task starts after its inputs were finalized), every selection of tasks that is closed under "is an input
   of" (the lineage of a file: Upstream holds the record of every input, recursively), run in a directory that holds only
   the source files: the script succeeds and every output of a listed task gets the content of the complete run *)
Theorem C20_bash_reproduces : forall (all : list Result.task) (keep : list bool), List.length keep = List.length all ->
  forall (f0 fR : Result.fs), Bash.closed all keep -> Result.wf all ->
  (forall t, In t all -> forall x, In x (Result.tout t) -> f0 x = None) ->
  Result.result all f0 = Some fR ->
  exists fS, Result.result (Bash.sub all keep) f0 = Some fS /\ forall x, Bash.kept_out all keep x -> fS x = fR x.
Proof. exact Bash.script_reproduces. Qed.

(* ... and the complete run it is compared with is any concurrent execution of the workflow (every schedule of the task /
   file-store machine): what the script writes is what the workflow left on disk *)
Theorem C20_bash_reproduces_run : forall (c : TaskFS.cfg) (f0 : Result.fs) (left0 : nat -> bool), TInv.wfc c ->
  forall fR, Glue.pre c f0 (TaskFS.nt c) = Some fR ->
  (forall t, In t (Glue.tl c (TaskFS.nt c)) -> forall x, In x (Result.tout t) -> f0 x = None) ->
  forall s, Cor.reachable c f0 left0 s -> (forall t, t < TaskFS.nt c -> TaskFS.is_done (TaskFS.pcs s t) = true) ->
  forall keep, List.length keep = List.length (Glue.tl c (TaskFS.nt c)) -> Bash.closed (Glue.tl c (TaskFS.nt c)) keep ->
  exists fS, Result.result (Bash.sub (Glue.tl c (TaskFS.nt c)) keep) f0 = Some fS /\
             forall t x, t < TaskFS.nt c -> nth t keep false = true -> In x (Result.tout (TaskFS.tk c t)) -> fS x = TaskFS.fin s x.
Proof.
  intros c f0 left0 WF fR HR CLEAN s R HD keep LEN CL.
  destruct (Bash.script_reproduces (Glue.tl c (TaskFS.nt c)) keep LEN f0 fR CL (Glue.wfc_wf c WF) CLEAN HR) as [fS [RS A]].
  exists fS. split; [exact RS|]. intros t x Ht Hk Hx.
  rewrite (TaskTop.complete_is_result c f0 left0 WF fR HR s R HD t x Ht Hx).
  apply A. exists t, (TaskFS.tk c t). split; [|split; assumption].
  apply map_nth_error. rewrite nth_error_nth' with (d := 0) by (rewrite seq_length; exact Ht).
  rewrite seq_nth by exact Ht. reflexivity.
Qed.

(* non-vacuity (Bash.tA .. tE: a diamond a -> (b, c) -> d and an unrelated e): the script for the lineage of d's output,
   which leaves e out, gives that output the content of the complete run and does not write e's *)
Theorem C20_bash_example :
  let f0 : Result.fs := fun x => if Nat.eqb x 0 then Some 5 else None in
  match Result.result [Bash.tA; Bash.tB; Bash.tE; Bash.tC; Bash.tD] f0,
        Result.result (Bash.sub [Bash.tA; Bash.tB; Bash.tE; Bash.tC; Bash.tD] [true; true; false; true; true]) f0 with
  | Some fR, Some fS => fR 4 = Some 30 /\ fS 4 = Some 30 /\ fS 9 = None /\ fR 9 = Some 105
  | _, _ => False
  end.
Proof. exact Bash.script_example. Qed.

(* a diamond lineage with a shared ancestor (id 1) reached through two paths, and two source records with start time 0 *)
Definition ex_tree : rec :=
  Rec 9 30 0 [Rec 5 20 0 [Rec 1 10 0 [Rec 3 0 0 []; Rec 2 0 0 []]]; Rec 6 20 0 [Rec 1 10 0 [Rec 3 0 0 []; Rec 2 0 0 []]]].
(* example: the report of ex_tree lists the shared ancestor once and keeps both records of each tie (start times 0 and 20),
   in ID order *)
Theorem C20_example : map rid (report ex_tree) = [2; 3; 1; 5; 6; 9].
Proof. vm_compute. reflexivity. Qed.

(* T1, call cones (DESIGN 11.26, ExpectedCones.v): every function of scipipe reachable from the functions this property's
   models stand for is one the models were compared with. *)
Theorem C20_cone_conforms :
  strs_eqb cone_FileIP_AuditInfo exp_cone_FileIP_AuditInfo
  && strs_eqb cone_NewFileIP exp_cone_NewFileIP
  && strs_eqb cone_UnmarshalAuditInfoJSONFile exp_cone_UnmarshalAuditInfoJSONFile = true.
Proof. vm_compute. reflexivity. Qed.

Print Assumptions C20_flatten.
Print Assumptions C20_flatten_once.
Print Assumptions C20_report_complete.
Print Assumptions C20_report_once.
Print Assumptions C20_report_sorted.
Print Assumptions C20_ties_refuted_before_repair.
Print Assumptions C20_bash_reproduces.
Print Assumptions C20_bash_reproduces_run.
Print Assumptions C20_bash_example.
Print Assumptions C20_example.
Print Assumptions C20_cone_conforms.
