(* The slot machine of C06 / C07: one program counter per task; the tokens in the channel are what the tasks hold, and
   at most cap (Inv).  The skip branch of Task.Execute, which returns before IncConcurrentTasks (task.go:265-270), is
   left out. *)
From Coq Require Import List Arith Lia.
From SP Require Import Lib.
Import ListNotations.

(* Per-task program counter for slot handling, mirroring Task.Execute /
   Workflow.IncConcurrentTasks / DecConcurrentTasks *)
Inductive pc :=
| Idle                 (* before IncConcurrentTasks *)
| WaitLock             (* blocked on concurrentTasksMx.Lock *)
| Depositing (k : nat) (* holds mutex, k tokens deposited so far *)
| Running              (* mutex released, command executing *)
| Releasing (k : nat)  (* command + finalize done, k tokens still to remove *)
| Finished.

Record task := { cores : nat; st : pc }.

(* [tokens], [cap]: length and capacity of the channel wf.concurrentTasks; [mutex]: concurrentTasksMx, Some i = held by
   task i.  [cap] is constant (SlotsTop.step_cap). *)
Record state := { cap : nat; tokens : nat; mutex : option nat; tasks : list task }.

Fixpoint upd (l : list task) (i : nat) (t : task) : list task :=
  match l, i with
  | [], _ => []
  | _ :: r, O => t :: r
  | a :: r, S j => a :: upd r j t
  end.

Definition set_pc (t : task) (p : pc) := {| cores := cores t; st := p |}.

Definition step (s : state) (i : nat) : option state :=
  match nth_error (tasks s) i with
  | None => None
  | Some t =>
    match st t with
    | Idle => Some {| cap := cap s; tokens := tokens s; mutex := mutex s; tasks := upd (tasks s) i (set_pc t WaitLock) |}
    | WaitLock =>
      match mutex s with
      | Some _ => None
      | None => Some {| cap := cap s; tokens := tokens s; mutex := Some i; tasks := upd (tasks s) i (set_pc t (Depositing 0)) |}
      end
    | Depositing k =>
      if Nat.eqb k (cores t)
      then Some {| cap := cap s; tokens := tokens s; mutex := None; tasks := upd (tasks s) i (set_pc t Running) |}
      else if Nat.ltb (tokens s) (cap s)
           then Some {| cap := cap s; tokens := S (tokens s); mutex := mutex s; tasks := upd (tasks s) i (set_pc t (Depositing (S k))) |}
           else None
    | Running => Some {| cap := cap s; tokens := tokens s; mutex := mutex s; tasks := upd (tasks s) i (set_pc t (Releasing (cores t))) |}
    | Releasing 0 => Some {| cap := cap s; tokens := tokens s; mutex := mutex s; tasks := upd (tasks s) i (set_pc t Finished) |}
    | Releasing (S k) =>
      match tokens s with
      | 0 => None
      | S n => Some {| cap := cap s; tokens := n; mutex := mutex s; tasks := upd (tasks s) i (set_pc t (Releasing k)) |}
      end
    | Finished => None
    end
  end.

(* the tokens a task holds; [Releasing 0] and a running task with no cores hold none (nothing requires 1 <= cores), so it is sums
   of cores and tokens that [cap] bounds, not the number of running tasks *)
Definition held (t : task) : nat :=
  match st t with
  | Depositing k => k
  | Running => cores t
  | Releasing k => k
  | _ => 0
  end.

Definition executing (t : task) : nat :=
  match st t with Running => cores t | _ => 0 end.

Fixpoint tsum (f : task -> nat) (l : list task) : nat := match l with [] => 0 | t :: r => f t + tsum f r end.

Definition Inv (s : state) : Prop :=
  tokens s <= cap s /\ tsum held (tasks s) = tokens s.

(* the moves of task i, whose record is t, in state s: its new program counter, the new token count, the new mutex *)
Inductive move (s : state) (i : nat) (t : task) : pc -> nat -> option nat -> Prop :=
| MWait : st t = Idle -> move s i t WaitLock (tokens s) (mutex s)
| MLock : st t = WaitLock -> mutex s = None -> move s i t (Depositing 0) (tokens s) (Some i)
| MDeposit k : st t = Depositing k -> k <> cores t -> tokens s < cap s ->
    move s i t (Depositing (S k)) (S (tokens s)) (mutex s)
| MUnlock : st t = Depositing (cores t) -> move s i t Running (tokens s) None
| MExec : st t = Running -> move s i t (Releasing (cores t)) (tokens s) (mutex s)
| MRelease k n : st t = Releasing (S k) -> tokens s = S n -> move s i t (Releasing k) n (mutex s)
| MDone : st t = Releasing 0 -> move s i t Finished (tokens s) (mutex s).

Arguments MWait {s i t}. Arguments MLock {s i t}. Arguments MDeposit {s i t}. Arguments MUnlock {s i t}.
Arguments MExec {s i t}. Arguments MRelease {s i t}. Arguments MDone {s i t}.

Definition moved (s : state) (i : nat) (t : task) (q : pc) (tk : nat) (m : option nat) : state :=
  {| cap := cap s; tokens := tk; mutex := m; tasks := upd (tasks s) i (set_pc t q) |}.

Lemma step_iff s i s' : step s i = Some s' <->
  exists t q tk m, nth_error (tasks s) i = Some t /\ move s i t q tk m /\ s' = moved s i t q tk m.
Proof.
  unfold step. split.
  - destruct (nth_error (tasks s) i) as [t|]; [|discriminate]. intros H. exists t.
    destruct (st t) as [| |k| |[|k]|] eqn:E.
    + injection H as <-. eauto 8 using MWait.
    + destruct (mutex s) eqn:M; [discriminate|]. injection H as <-. eauto 8 using MLock.
    + destruct (Nat.eqb_spec k (cores t)) as [->|N].
      * injection H as <-. eauto 8 using MUnlock.
      * destruct (Nat.ltb_spec (tokens s) (cap s)); [|discriminate]. injection H as <-. eauto 8 using MDeposit.
    + injection H as <-. eauto 8 using MExec.
    + injection H as <-. eauto 8 using MDone.
    + destruct (tokens s) eqn:T; [discriminate|]. injection H as <-. eauto 8 using MRelease.
    + (* Finished *) discriminate.
  - intros (t & q & tk & m & -> & M & ->). destruct M as [E|E M|k E N L|E|E|k n E T|E]; rewrite E; try reflexivity.
    + (* MLock *) rewrite M. reflexivity.
    + (* MDeposit *) apply Nat.eqb_neq in N. apply Nat.ltb_lt in L. rewrite N, L. reflexivity.
    + (* MUnlock *) rewrite Nat.eqb_refl. reflexivity.
    + (* MRelease *) rewrite T. reflexivity.
Qed.

Lemma can_step {s i t q tk m} : nth_error (tasks s) i = Some t -> move s i t q tk m -> step s i <> None.
Proof. intros Hn M. rewrite (proj2 (step_iff s i (moved s i t q tk m))) by eauto 8. discriminate. Qed.

Lemma upd_length l : forall i t, length (upd l i t) = length l.
Proof. induction l as [|a l IH]; intros [|i] t; simpl; auto. Qed.

Lemma nth_upd_same {l i t t'} : nth_error l i = Some t -> nth_error (upd l i t') i = Some t'.
Proof. revert i; induction l as [|a l IH]; intros [|i] H; simpl; try discriminate; auto. Qed.

Lemma nth_upd_other l i j t' : i <> j -> nth_error (upd l i t') j = nth_error l j.
Proof. revert i j; induction l as [|a l IH]; intros [|i] [|j] H; simpl; auto; congruence. Qed.

Lemma nth_upd_inv {l i t t' j u} : nth_error l i = Some t -> nth_error (upd l i t') j = Some u ->
  (j = i /\ u = t') \/ (j <> i /\ nth_error l j = Some u).
Proof.
  intros Hi Hj. destruct (Nat.eq_dec i j) as [<-|N].
  - rewrite (nth_upd_same Hi) in Hj. injection Hj as <-. auto.
  - rewrite nth_upd_other in Hj by exact N. auto.
Qed.

(* nth_snoc, nth_snoc_old, nth_snoc_new and sum_app serve NetSlots.add_task alone: nothing in the Slots files appends *)
Lemma nth_snoc {A} {l : list A} {x k y} :
  nth_error (l ++ [x]) k = Some y -> nth_error l k = Some y \/ (k = length l /\ y = x).
Proof.
  revert k. induction l as [|a l IH]; intros [|k] H; auto.
  - (* l empty, k = 0: the new element *) injection H as <-. auto.
  - (* l empty, k > 0 *) destruct k; discriminate.
  - (* below the head *) destruct (IH k H) as [H'|[-> ->]]; auto.
Qed.

Lemma nth_snoc_old {A} (l : list A) x k y : nth_error l k = Some y -> nth_error (l ++ [x]) k = Some y.
Proof. intros H. rewrite nth_error_app1; [exact H|]. apply nth_error_Some. congruence. Qed.

Lemma nth_snoc_new {A} (l : list A) x : nth_error (l ++ [x]) (length l) = Some x.
Proof. rewrite nth_error_app2, Nat.sub_diag; reflexivity. Qed.

Lemma sum_app f l1 l2 : tsum f (l1 ++ l2) = tsum f l1 + tsum f l2.
Proof. induction l1; simpl; lia. Qed.

Lemma sum_upd f {l i t} t' :
  nth_error l i = Some t -> tsum f (upd l i t') + f t = tsum f l + f t'.
Proof.
  revert i; induction l as [|a l IH]; intros [|i] H; simpl; try discriminate.
  - inversion H. lia.
  - specialize (IH i H). lia.
Qed.

Lemma sum_le f g l : (forall t, f t <= g t) -> tsum f l <= tsum g l.
Proof. intros H; induction l; simpl; [lia|]. specialize (H a). lia. Qed.

Lemma nth_le_sum f {l i t} : nth_error l i = Some t -> f t <= tsum f l.
Proof.
  revert i. induction l as [|a l IH]; intros [|i] H; simpl; try discriminate.
  - injection H as ->. lia.
  - specialize (IH i H). lia.
Qed.

Lemma executing_le_held t : executing t <= held t.
Proof. unfold executing, held; destruct (st t); lia. Qed.

Lemma move_held {s i t q tk m} : move s i t q tk m ->
  held (set_pc t q) + tokens s = held t + tk /\ (tokens s <= cap s -> tk <= cap s).
Proof. unfold held. destruct 1 as [E|E M|k E N L|E|E|k n E T|E]; rewrite E; simpl; lia. Qed.

Lemma step_inv s i s' : Inv s -> step s i = Some s' -> Inv s'.
Proof.
  intros [Hc Hs] H. apply step_iff in H. destruct H as (t & q & tk & m & Hn & M & ->).
  destruct (move_held M) as [E L]. pose proof (sum_upd held (set_pc t q) Hn).
  split; simpl; lia.
Qed.

Fixpoint run (s : state) (sched : list nat) : option state :=
  match sched with
  | [] => Some s
  | i :: r => match step s i with Some s' => run s' r | None => None end
  end.

Lemma inv_bound s : Inv s -> tsum executing (tasks s) <= cap s.
Proof. intros [Hc Hs]. pose proof (sum_le executing held (tasks s) executing_le_held). lia. Qed.

Theorem C06_slots_never_exceeded :
  forall s sched s', Inv s -> run s sched = Some s' -> tsum executing (tasks s') <= cap s'.
Proof.
  intros s sched s' HI H. apply inv_bound. revert HI H.
  apply (run_invariant step run); [reflexivity|reflexivity|exact step_inv].
Qed.
Print Assumptions C06_slots_never_exceeded.
