(* C15: output-path patterns (Process.SetOut) and the default output name (initDefaultPathFuncs):
   a missing value stops the expansion; the default name does not depend on the order in which Go enumerates the maps. *)
From Coq Require Import List String Permutation.
Import ListNotations.
From SP Require Import Str PathLex Format TempNames TempStable WfModel.

Definition value_of (ins pars tags : list (str * str)) (kind rest : str) : option str :=
  let name := hd [] (split_on pipe rest) in
  if str_eqb kind (s2l "i") then lookup name ins
  else if str_eqb kind (s2l "p") then lookup name pars
  else if str_eqb kind (s2l "t") then lookup name tags else None.

(* a placeholder of an output-path pattern that has no value (input, parameter or tag missing; any other kind) makes the
   whole expansion fail -- never a path with an unreplaced placeholder.  The model leaves {o:...} in out-path patterns
   out: Go resolves it through that port's path function (process.go:259-263), here it is one of the other kinds *)
Theorem setout_missing_fails pat ins pars tags whole kind rest :
  In (whole, kind, rest) (find_all pat 0) -> value_of ins pars tags kind rest = None -> expand pat ins pars tags = Fail.
Proof.
  intros Hin Hv. unfold expand. apply fold_left_absorb with (m := (whole, kind, rest)).
  - reflexivity.
  - exact Hin.
  - intros [c|]; [|reflexivity]. fold (value_of ins pars tags kind rest). rewrite Hv. reflexivity.
Qed.

Theorem default_path_order_independent pname pattern port (ins ins' pars pars' tags tags' : list (str * str)) :
  NoDup (map fst ins) -> NoDup (map fst pars) -> NoDup (map fst tags) ->
  Permutation ins ins' -> Permutation pars pars' -> Permutation tags tags' ->
  default_path pname pattern port ins pars tags = default_path pname pattern port ins' pars' tags'.
Proof.
  intros N1 N2 N3 P1 P2 P3. unfold default_path.
  rewrite (sort_kv_order_independent N1 P1), (sort_kv_order_independent N2 P2),
          (sort_kv_order_independent N3 P3). reflexivity.
Qed.
