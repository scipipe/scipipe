(* C01 -- Output files appear atomically: never partial, never from a failed command.
   Model: TaskFS -- Task.Execute with FinalizePaths inlined, as a transition system over a DAG of tasks and an abstract
   file store; the command may write any sequence of (partial) files into its temp area, exit 0 with some outputs omitted,
   or fail; declared outputs are renamed one per step in an arbitrary order; a failure exits the whole program; a kill is
   "no further step".  Quantifiers: every task DAG `c`, every initial store `f0`, every set of left-over temp dirs, every
   schedule (so: every interleaving, every instant of a kill, every failure mode). *)
From Coq Require Import List Bool String.
Import ListNotations.
From SP Require Import Skel Gen Expected ExpectedCones Result TaskFS TInv Cor.
From SP Require CopyFin.
From SP Require FailWindow.

(* T1: order of phases in Task.Execute and FinalizePaths; every failure exits the process; FileIP.Write goes beneath the temp dir *)
Theorem C01_code_conforms :
  skel_eqb skel_Task_Execute exp_Task_Execute
  && skel_eqb skel_FinalizePaths exp_FinalizePaths
  && skel_eqb skel_Task_finalizePaths exp_Task_finalizePaths
  && skel_eqb skel_Task_tempDirsExist exp_Task_tempDirsExist
  && skel_eqb skel_Task_anyOutputsExist exp_Task_anyOutputsExist
  && skel_eqb skel_Task_createDirs exp_Task_createDirs
  && skel_eqb skel_Task_executeCommand exp_Task_executeCommand
  && skel_eqb skel_Task_ensureAllOutputsExist exp_Task_ensureAllOutputsExist
  && skel_eqb skel_FileIP_Write exp_FileIP_Write
  && skel_eqb skel_NewTask exp_NewTask
  && skel_eqb skel_Fail exp_Fail && skel_eqb skel_Failf exp_Failf && skel_eqb skel_CheckWithMsg exp_CheckWithMsg = true.
Proof. vm_compute. reflexivity. Qed.

(* the ordering facts the transition system builds in, read off the expected skeleton *)
Theorem C01_order_facts :
  call_before "t.workflow.IncConcurrentTasks" "t.createDirs" exp_Task_Execute
  && call_before "t.createDirs" "t.executeCommand" exp_Task_Execute
  && call_before "t.executeCommand" "t.ensureAllOutputsExist" exp_Task_Execute
  && call_before "t.ensureAllOutputsExist" "t.finalizePaths" exp_Task_Execute
  && call_before "t.finalizePaths" "t.workflow.DecConcurrentTasks" exp_Task_Execute = true.
Proof. vm_compute. reflexivity. Qed.

(* in every reachable state a declared output path holds either what it held initially, or exactly the complete value
   produced by a command of its own task that exited successfully on the final inputs *)
Theorem C01_atomic : forall (c : cfg) (f0 : fs) (left0 : nat -> bool), wfc c ->
  forall s, reachable c f0 left0 s ->
  forall t x, t < nt c -> In x (tout (tk c t)) ->
  fin s x = f0 x \/
  (past_cmd (pcs s t) = true /\ sem (tk c t) (map (fin s) (tin (tk c t))) = Some (val s t) /\
   fin s x = TInv.lookup x (tout (tk c t)) (val s t) /\ fin s x <> None).
Proof.
  intros c f0 left0 WF s R. exact (TInv.C01_atomic c f0 left0 s (reach_inv WF R)).
Qed.

(* while the command runs, after it failed, or if the run was cut before the command succeeded: nothing new at the final paths *)
Theorem C01_failed_leaves_nothing : forall (c : cfg) (f0 : fs) (left0 : nat -> bool), wfc c ->
  forall s t x, reachable c f0 left0 s -> t < nt c -> In x (tout (tk c t)) ->
  past_cmd (pcs s t) = false -> fin s x = f0 x.
Proof. exact Cor.C09_failed_outputs_untouched. Qed.

(* paths that are no task's declared output never change *)
Theorem C01_confined : forall (c : cfg) (f0 : fs) (left0 : nat -> bool), wfc c ->
  forall s, reachable c f0 left0 s ->
  forall x, (forall t, t < nt c -> ~ In x (tout (tk c t))) -> fin s x = f0 x.
Proof. intros c f0 left0 WF s R. destruct (reach_inv WF R) as [_ H]. exact H. Qed.

(* a two-task chain with a two-output producer *)
Definition ex_cfg : cfg := {| nt := 2; tk := fun t => if Nat.eqb t 0 then {| tin := []; tout := [0; 1]; sem := fun _ => Some [7; 8] |}
                                                        else {| tin := [0]; tout := [2]; sem := fun xs => match xs with [Some v] => Some [S v] | _ => None end |} |}.
(* non-vacuity: cut after the first of the producer's two renames, one state shows both cases of C01_atomic: output 1 holds
   the command's value, output 0 is still absent *)
Theorem C01_nonvacuous :
  exists s, run ex_cfg (init ex_cfg (fun _ => None) (fun _ => false))
                [AStart 0; AChkTemp 0; AChkOut 0; AMkTemp 0; AWrite 0 0 99; ACmdOk 0 []; AEnsure 0 [1; 0]; ARename 0] = Some s
            /\ fin s 1 = Some 8 /\ fin s 0 = None.
Proof. eexists. split; [vm_compute; reflexivity|]. split; reflexivity. Qed.

(* FailWindow.v: the program ends some time after the step in which a task fails, and the other tasks go on meanwhile.
   Atomicity holds in every state of that window, however long it lasts ... *)
Theorem C01_window_atomic : forall (c : cfg) (f0 : fs) (left0 : nat -> bool), wfc c ->
  forall w, FailWindow.wreachable c f0 left0 w ->
  forall t x, t < nt c -> In x (tout (tk c t)) ->
  fin (FailWindow.base w) x = f0 x \/
  (past_cmd (pcs (FailWindow.base w) t) = true /\
   sem (tk c t) (map (fin (FailWindow.base w)) (tin (tk c t))) = Some (val (FailWindow.base w) t) /\
   fin (FailWindow.base w) x = TInv.lookup x (tout (tk c t)) (val (FailWindow.base w) t) /\ fin (FailWindow.base w) x <> None).
Proof. intros c f0 left0 WF w R. exact (FailWindow.window_atomic c f0 left0 WF w R). Qed.

(* ... and nothing of a task that failed ever reaches its final paths, whatever the others do before the program is gone *)
Theorem C01_window_failed_leaves_nothing : forall (c : cfg) (f0 : fs) (left0 : nat -> bool), wfc c ->
  forall w, FailWindow.wreachable c f0 left0 w ->
  forall t x, t < nt c -> FailWindow.failed w t = true -> In x (tout (tk c t)) -> fin (FailWindow.base w) x = f0 x.
Proof. intros c f0 left0 WF w R. exact (FailWindow.window_failed_leaves_nothing c f0 left0 WF w R). Qed.

(* the window exists: one task fails, another one finalizes its output before the program ends *)
Theorem C01_window_nonvacuous :
  exists w tr, FailWindow.wrun FailWindow.w_cfg (FailWindow.winit FailWindow.w_cfg (fun _ => None) (fun _ => false)) FailWindow.w_sched = Some (w, tr)
    /\ FailWindow.gone w = true /\ FailWindow.failed w 0 = true /\ fin (FailWindow.base w) 0 = None
    /\ fin (FailWindow.base w) 1 = Some 5 /\ pcs (FailWindow.base w) 1 = DoneRan.
Proof. exact FailWindow.window_example. Qed.

(* what both rest on is that Fail does not return (T1: exp_Fail ends in os.Exit on its only path).  Let a second failure,
   reported while the first report is still being written, return to its caller instead, and the partial file of a command
   that exited non-zero is renamed to its final path: *)
Theorem C01_returning_fail_refuted :
  exists w, FailWindow.returning_run FailWindow.r_cfg (FailWindow.winit FailWindow.r_cfg (fun _ => None) (fun _ => false)) FailWindow.r_sched = Some w
    /\ FailWindow.gone w = true /\ sem (tk FailWindow.r_cfg 1) [] = None /\ fin (FailWindow.base w) 1 = Some 77.
Proof. exact FailWindow.returning_fail_refuted. Qed.

(* T1, call cones (DESIGN 11.26, ExpectedCones.v): every function of scipipe reachable from the functions above is one the
   models were compared with. *)
Theorem C01_cone_conforms :
  strs_eqb cone_Task_Execute exp_cone_Task_Execute
  && strs_eqb cone_FinalizePaths exp_cone_FinalizePaths
  && strs_eqb cone_Task_finalizePaths exp_cone_Task_finalizePaths
  && strs_eqb cone_Task_tempDirsExist exp_cone_Task_tempDirsExist
  && strs_eqb cone_Task_anyOutputsExist exp_cone_Task_anyOutputsExist
  && strs_eqb cone_Task_createDirs exp_cone_Task_createDirs
  && strs_eqb cone_Task_executeCommand exp_cone_Task_executeCommand
  && strs_eqb cone_Task_ensureAllOutputsExist exp_cone_Task_ensureAllOutputsExist
  && strs_eqb cone_FileIP_Write exp_cone_FileIP_Write
  && strs_eqb cone_NewTask exp_cone_NewTask
  && strs_eqb cone_Fail exp_cone_Fail
  && strs_eqb cone_Failf exp_cone_Failf
  && strs_eqb cone_CheckWithMsg exp_cone_CheckWithMsg = true.
Proof. vm_compute. reflexivity. Qed.

(* CopyFin.v: were an output copied onto its final path instead of renamed there, a kill during the copy would leave a
   partial file under the final name although the command produced something else *)
Theorem C01_copying_finalize_refuted :
  exists s, CopyFin.crun CopyFin.one (init CopyFin.one (fun _ => None) (fun _ => false))
              [CopyFin.Plain (AStart 0); CopyFin.Plain (AChkTemp 0); CopyFin.Plain (AChkOut 0); CopyFin.Plain (AMkTemp 0);
               CopyFin.Plain (ACmdOk 0 []); CopyFin.Plain (AEnsure 0 [0]); CopyFin.CopyPart 0 0 4] = Some s
            /\ fin s 0 = Some 4 /\ val s 0 = [42] /\ sem (tk CopyFin.one 0) [] = Some [42].
Proof. exact CopyFin.copying_finalize_refuted. Qed.

Print Assumptions C01_code_conforms.
Print Assumptions C01_order_facts.
Print Assumptions C01_atomic.
Print Assumptions C01_failed_leaves_nothing.
Print Assumptions C01_confined.
Print Assumptions C01_nonvacuous.
Print Assumptions C01_window_atomic.
Print Assumptions C01_window_failed_leaves_nothing.
Print Assumptions C01_window_nonvacuous.
Print Assumptions C01_returning_fail_refuted.
Print Assumptions C01_cone_conforms.
Print Assumptions C01_copying_finalize_refuted.
