(* replaceParentDirsWithPlaceholder, the encoding step of FileIP.TempPath (C13). *)
From Coq Require Import List Ascii String.
Import ListNotations.
Require Import Str.

Definition dotc : ascii := "."%char.
Definition slc : ascii := "/"%char.
Definition up : str := [dotc; dotc; slc].
Definition PH : str := list_ascii_of_string "__parent__".

(* the placeholder has neither '.' nor '/' *)
Theorem C13_no_parent_in_temp_path s k : prefixb up (skipn k (replace_all up PH s)) = false.
Proof.
  apply replace_all_no_old; try discriminate.
  intros c Hc Hu. destruct Hu as [<-|[<-|[<-|[]]]]; cbn in Hc; intuition discriminate.
Qed.
Print Assumptions C13_no_parent_in_temp_path.
