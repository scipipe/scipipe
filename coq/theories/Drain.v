(* Draining the FIFOs of a skipped task's streaming inputs (finding D22).
   A task that is skipped on a re-run reads and discards what arrives on the FIFOs of its streaming inputs.  Opening a
   FIFO blocks until the other side opens it too, and the upstream task writes its FIFOs in an order of its own.
   Sequential draining in another order waits for ever; concurrent draining never does. *)
From Coq Require Import List Bool.
Import ListNotations.
From SP Require Import Lib.

(* the producer's remaining writes, in order; the FIFOs a reader is currently waiting to open; the FIFOs a sequential
   drainer turns to afterwards, in its order *)
Record st := { pw : list nat; waiting : list nat; later : list nat }.

(* one rendezvous: the producer's next FIFO is one a reader is waiting on; it is written, read to EOF, closed.
   A sequential drainer waits on one FIFO at a time, a concurrent drainer on all of them ([later] is empty). *)
Definition step (s : st) : option st :=
  match pw s with
  | f :: r =>
      if existsb (Nat.eqb f) (waiting s)
      then let w := filter (fun x => negb (Nat.eqb x f)) (waiting s) in
           match w, later s with
           | [], g :: l => Some {| pw := r; waiting := [g]; later := l |}     (* the sequential drainer moves on *)
           | _, _ => Some {| pw := r; waiting := w; later := later s |}
           end
      else None
  | [] => None
  end.

Definition sequential (order : list nat) (writes : list nat) : st :=
  match order with [] => {| pw := writes; waiting := []; later := [] |} | g :: l => {| pw := writes; waiting := [g]; later := l |} end.
Definition concurrent (fifos : list nat) (writes : list nat) : st := {| pw := writes; waiting := fifos; later := [] |}.

Lemma step_enabled s f r : pw s = f :: r -> In f (waiting s) -> step s <> None.
Proof.
  intros E H. unfold step. rewrite E, (proj2 (existsb_eqb_In f (waiting s)) H).
  destruct (filter _ (waiting s)), (later s); discriminate.
Qed.

(* [s] is the state in which the first n writes are done and the drainer waits on the FIFOs not yet written; that n steps
   lead from [concurrent fifos writes] to it is not proved *)
Theorem concurrent_progress : forall (writes fifos : list nat),
  NoDup writes -> (forall f, In f writes -> In f fifos) ->
  forall n s, n <= length writes ->
  s = {| pw := skipn n writes; waiting := filter (fun x => negb (existsb (Nat.eqb x) (firstn n writes))) fifos; later := [] |} ->
  pw s <> [] -> step s <> None.
Proof.
  intros writes fifos ND Hin n s _ -> Hne. simpl in Hne. destruct (skipn n writes) as [|f r] eqn:E; [congruence|].
  apply step_enabled with f r; [reflexivity|].
  (* f is written now, so it was not written before *)
  rewrite <- (firstn_skipn n writes), E in ND, Hin. apply NoDup_remove_2 in ND.
  apply filter_In. split; [apply Hin, in_elt|]. apply negb_true_iff, existsb_eqb_false.
  intros H. apply ND, in_or_app. left. exact H.
Qed.

Theorem sequential_stuck : step (sequential [2; 1] [1; 2]) = None /\ pw (sequential [2; 1] [1; 2]) <> [].
Proof. split; [reflexivity|discriminate]. Qed.

(* the concurrent drainer gets through the same producer *)
Example concurrent_example :
  match step (concurrent [2; 1] [1; 2]) with Some s1 => match step s1 with Some s2 => pw s2 = [] | None => False end | None => False end.
Proof. reflexivity. Qed.
