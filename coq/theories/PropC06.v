(* C06 -- Concurrently executing tasks never exceed maxConcurrentTasks.
   Model: Slots -- the token channel of capacity `cap`, the mutex, and per task the program of IncConcurrentTasks
   (lock; deposit `cores` tokens one by one, blocking when the channel is full; unlock), the command, and
   DecConcurrentTasks (remove `cores` tokens one by one, no lock). *)
From Coq Require Import List Bool String.
Import ListNotations.
From SP Require Import Skel Gen Expected ExpectedCones Slots SlotsTop.
From SP Require NetA Inv NetSlots.

(* T1: the two slot functions have exactly the modelled shape, and Task.Execute brackets the command with them *)
Theorem C06_code_conforms :
  skel_eqb skel_Workflow_IncConcurrentTasks exp_Workflow_IncConcurrentTasks
  && skel_eqb skel_Workflow_DecConcurrentTasks exp_Workflow_DecConcurrentTasks
  && skel_eqb skel_Task_Execute exp_Task_Execute = true.
Proof. vm_compute. reflexivity. Qed.

(* what the expected skeletons say: IncConcurrentTasks sends its tokens between Lock and Unlock, DecConcurrentTasks
   receives them without the lock, and Task.Execute calls IncConcurrentTasks before the command and both the command and
   finalizePaths before DecConcurrentTasks *)
Theorem C06_order_facts :
  skel_eqb exp_Workflow_IncConcurrentTasks
     [SLock "wf.concurrentTasksMx"; SFor "i < slots" [SSend "wf.concurrentTasks"]; SUnlock "wf.concurrentTasksMx"]
  && skel_eqb exp_Workflow_DecConcurrentTasks [SFor "i < slots" [SRecv "wf.concurrentTasks"]]
  && call_before "t.workflow.IncConcurrentTasks" "t.executeCommand" exp_Task_Execute
  && call_before "t.executeCommand" "t.workflow.DecConcurrentTasks" exp_Task_Execute
  && call_before "t.finalizePaths" "t.workflow.DecConcurrentTasks" exp_Task_Execute = true.
Proof. vm_compute. reflexivity. Qed.

(* for every capacity, every list of tasks with arbitrary core counts, every schedule: the cores of the tasks whose
   command is executing sum to at most the capacity *)
Theorem C06_slots_never_exceeded : forall (cap0 : nat) (cs : list nat) (sched : list nat) (s' : state),
  run (init cap0 cs) sched = Some s' -> tsum executing (tasks s') <= cap0.
Proof. exact SlotsTop.never_exceeded. Qed.

(* the same from any state satisfying the token invariant (tokens = sum of what tasks hold <= cap) *)
Theorem C06_invariant_form : forall (s : state) (sched : list nat) (s' : state),
  Inv s -> run s sched = Some s' -> tsum executing (tasks s') <= cap s'.
Proof. exact Slots.C06_slots_never_exceeded. Qed.

(* non-vacuity: three tasks of 2, 1, 2 cores on capacity 3; a schedule that brings the first two to Running *)
Theorem C06_nonvacuous :
  exists s', run (init 3 [2; 1; 2]) [0; 0; 0; 0; 0; 1; 1; 1; 1] = Some s' /\ tsum executing (tasks s') = 3.
Proof. eexists. split; vm_compute; reflexivity. Qed.

(* the same inside a running workflow: tasks are not given in advance but spawned by the processes of the network as
   their inputs arrive (NetSlots).  In every reachable state of the product -- every network, every stream length, every
   schedule -- the executing cores sum to at most the maximum; the two hypotheses (Inv.wf, cores <= slots) are not
   used: the network never touches the tokens *)
Theorem C06_in_workflow : forall (p : NetSlots.pcfg) (len : nat -> nat),
  Inv.wf (NetSlots.ncfg p) len -> (forall v, v < NetA.nn (NetSlots.ncfg p) -> NetSlots.pcores p v <= NetSlots.pcap p) ->
  forall (l : list NetSlots.pact) (s : NetSlots.pst),
  NetSlots.prun p (NetSlots.pinit p) l = Some s ->
  tsum executing (tasks (NetSlots.sl s)) <= NetSlots.pcap p.
Proof. intros p len _ _. exact (NetSlots.product_slots_never_exceeded p). Qed.

(* T1, call cones (DESIGN 11.26, ExpectedCones.v): every function of scipipe reachable from the functions above is one the
   models were compared with. *)
Theorem C06_cone_conforms :
  strs_eqb cone_Workflow_IncConcurrentTasks exp_cone_Workflow_IncConcurrentTasks
  && strs_eqb cone_Workflow_DecConcurrentTasks exp_cone_Workflow_DecConcurrentTasks
  && strs_eqb cone_Task_Execute exp_cone_Task_Execute = true.
Proof. vm_compute. reflexivity. Qed.

Print Assumptions C06_code_conforms.
Print Assumptions C06_order_facts.
Print Assumptions C06_slots_never_exceeded.
Print Assumptions C06_invariant_form.
Print Assumptions C06_nonvacuous.
Print Assumptions C06_in_workflow.
Print Assumptions C06_cone_conforms.
