(* Audit records (C10 / C11): the in-memory construction of provenance -- every task snapshots the records its inputs carry
   at that moment and stores the result on its outputs -- equals the recursive lineage of the task DAG. *)
From Coq Require Import List.
Import ListNotations.

Section Lineage.
Variable P : Type.                     (* what a record says about its own task: process, command, parameters, out files *)

Inductive tree := Node (payload : option P) (up : list (nat * tree)).   (* None: a file no task of this history produced *)
Definition empty : tree := Node None [].

Record atask := { at_payload : P; at_ins : list nat; at_outs : list nat }.

(* the store: path -> record, first match wins *)
Definition store := list (nat * tree).
Fixpoint get (s : store) (x : nat) : tree :=
  match s with [] => empty | (k, v) :: r => if Nat.eqb x k then v else get r x end.

(* writeAuditLogs: Upstream[in] := the record the in-IP carries now; every out-IP gets the new record *)
Definition exec (s : store) (t : atask) : store :=
  let r := Node (Some (at_payload t)) (map (fun i => (i, get s i)) (at_ins t)) in
  map (fun o => (o, r)) (at_outs t) ++ s.
Definition build (ts : list atask) : store := fold_left exec ts [].

(* the reference: the lineage of a path, by recursion over the history (most recent task first) *)
Fixpoint lin (hist : list atask) : nat -> tree :=
  match hist with
  | [] => fun _ => empty
  | t :: earlier =>
    let f := lin earlier in
    fun x => if existsb (Nat.eqb x) (at_outs t)
             then Node (Some (at_payload t)) (map (fun i => (i, f i)) (at_ins t))
             else f x
  end.

Lemma get_app_outs outs r s x :
  get (map (fun o => (o, r)) outs ++ s) x = if existsb (Nat.eqb x) outs then r else get s x.
Proof.
  induction outs as [|o outs IH]; simpl; auto.
  destruct (Nat.eqb x o); auto.
Qed.

Lemma exec_lin s done t : (forall x, get s x = lin done x) -> forall x, get (exec s t) x = lin (t :: done) x.
Proof.
  intros H x. unfold exec. rewrite get_app_outs. simpl.
  destruct (existsb (Nat.eqb x) (at_outs t)); [|apply H].
  f_equal. apply map_ext. intros i. now rewrite H.
Qed.

(* C10_upstream_is_lineage, C11_store_is_lineage *)
Theorem build_is_lineage ts x : get (build ts) x = lin (rev ts) x.
Proof.
  revert x. induction ts as [|t ts IH] using rev_ind; intros x; [reflexivity|].
  unfold build. rewrite fold_left_app, rev_unit. apply exec_lin. exact IH.
Qed.

(* resumed runs: C11_resume_keeps_records *)
Theorem build_resume ts1 ts2 x : get (fold_left exec ts2 (build ts1)) x = get (build (ts1 ++ ts2)) x.
Proof. unfold build. now rewrite fold_left_app. Qed.

Definition outs_has (t : atask) (x : nat) : bool := existsb (Nat.eqb x) (at_outs t).
Definition produced (h : list atask) (x : nat) : Prop := exists t, In t h /\ outs_has t x = true.

(* well ordered (most recent task first, as `lin` takes a history): no task reads what it writes; a path is written by
   one task only; nobody reads a path before it is written *)
Fixpoint WO (h : list atask) : Prop :=
  match h with
  | [] => True
  | t :: earlier =>
    (forall i, In i (at_ins t) -> outs_has t i = false) /\
    (forall o, outs_has t o = true -> ~ produced earlier o) /\
    (forall u, In u earlier -> forall i, In i (at_ins u) -> outs_has t i = false) /\
    WO earlier
  end.

Fixpoint producer (h : list atask) (x : nat) : option atask :=
  match h with [] => None | t :: e => if outs_has t x then Some t else producer e x end.

Lemma producer_find h x : producer h x = find (fun t => outs_has t x) h.
Proof. induction h as [|u e IH]; simpl; [reflexivity|]. now rewrite IH. Qed.

Lemma producer_in {h x t} : producer h x = Some t -> In t h /\ outs_has t x = true.
Proof. rewrite producer_find. apply find_some. Qed.

Lemma producer_none h x : producer h x = None -> ~ produced h x.
Proof.
  rewrite producer_find. intros H [t [Hin Ho]]. rewrite (find_none _ _ H t Hin) in Ho. discriminate.
Qed.

Lemma producer_some h x : produced h x -> exists t, producer h x = Some t.
Proof. intros HP. destruct (producer h x) eqn:E; eauto. exfalso. eapply producer_none; eauto. Qed.

(* under WO, `lin h` solves the lineage equation: the record of x is the payload of x's producer over `lin h` of its
   inputs.  The idea: the record of a path does not depend on tasks that come later and do not write it. *)
Lemma lin_fixpoint h : WO h -> forall x,
  lin h x = match producer h x with
            | Some t => Node (Some (at_payload t)) (map (fun i => (i, lin h i)) (at_ins t))
            | None => empty
            end.
Proof.
  induction h as [|t e IH]; intros W x; simpl; [reflexivity|].
  destruct W as [W1 [W2 [W3 W4]]]. fold (outs_has t x).
  destruct (outs_has t x).
  - f_equal. apply map_ext_in. intros i Hi. fold (outs_has t i). now rewrite (W1 i Hi).
  - rewrite (IH W4 x). destruct (producer e x) as [u|] eqn:Pe; [|reflexivity].
    f_equal. apply map_ext_in. intros i Hi. fold (outs_has t i).
    destruct (producer_in Pe) as [Hu _]. now rewrite (W3 u Hu i Hi).
Qed.

Lemma producer_unique h : WO h -> forall x t, In t h -> outs_has t x = true -> producer h x = Some t.
Proof.
  induction h as [|u e IH]; intros W x t Hin Ho; [destruct Hin|]. simpl.
  destruct W as [_ [W2 [_ W4]]].
  destruct (outs_has u x) eqn:E.
  - destruct Hin as [->|Hin]; [reflexivity|]. exfalso. apply (W2 x E). exists t. auto.
  - destruct Hin as [<-|Hin]; [congruence|]. apply IH; auto.
Qed.

(* the subtrees of a record are the records of the inputs: induction on the record itself reaches them *)
Lemma tree_ind' (Q : tree -> Prop) : (forall p up, Forall (fun kt => Q (snd kt)) up -> Q (Node p up)) -> forall t, Q t.
Proof.
  intros H. fix IH 1. intros [p up]. apply H.
  induction up as [|kt up IHup]; constructor; [apply IH|exact IHup].
Qed.

(* C11_resume_same_lineage *)
Theorem lineage_order_independent h1 h2 :
  WO h1 -> WO h2 -> (forall t, In t h1 <-> In t h2) -> forall x, lin h1 x = lin h2 x.
Proof.
  intros W1 W2 Same x.
  remember (lin h1 x) as r eqn:Er. revert x Er.
  induction r as [p up IH] using tree_ind'. intros x Er.
  rewrite (lin_fixpoint h1 W1 x) in Er. rewrite (lin_fixpoint h2 W2 x).
  destruct (producer h1 x) as [t|] eqn:P1.
  - (* t produced x in h1: it is the producer of x in h2 too, and the records of its inputs are subtrees *)
    destruct (producer_in P1) as [Hin Ho].
    rewrite (producer_unique h2 W2 x t (proj1 (Same t) Hin) Ho).
    injection Er as -> ->. f_equal. apply map_ext_in. intros i Hi. f_equal.
    rewrite Forall_map, Forall_forall in IH. exact (IH i Hi i eq_refl).
  - (* no task of h1 wrote x: none of h2 did *)
    destruct (producer h2 x) as [t|] eqn:P2; [|exact Er].
    exfalso. destruct (producer_in P2) as [Hin Ho].
    apply (producer_none h1 x P1). exists t. split; [apply Same; exact Hin|exact Ho].
Qed.

End Lineage.
