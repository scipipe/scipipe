(* Bridge between the string functions of the code (Format.temp_path = FileIP.TempPath, compared with the real function on
   every run) and the segment-level statements of PathFS: for every [nice] output path, splitting the temp path at "/"
   gives exactly PathFS.enc. *)
From Coq Require Import List String.
Import ListNotations.
From SP Require Import Str PathLex Encode Format PathFS.

Definition render (p : opath) : str :=
  match p with
  | ORel k segs => rep k up ++ join_sl segs
  | OAbs segs => sl :: join_sl segs
  end.

Definition not_dd_end (g : seg) : Prop := forall pre, g <> pre ++ dd.

Lemma dotc_dot : dotc = dot.  Proof. reflexivity. Qed.

Lemma up_rep k s : replace_all up PH (rep k up ++ s) = rep k PH ++ replace_all up PH s.
Proof.
  induction k as [|k IH]; [reflexivity|]. cbn [rep]. rewrite <- app_assoc, replace_all_match by discriminate.
  now rewrite IH.
Qed.

Lemma up_seg g : forall t, ~ In sl g -> not_dd_end g -> replace_all up PH (g ++ sl :: t) = g ++ sl :: replace_all up PH t.
Proof.
  induction g as [|c g IH]; intros t Hn Hd; cbn [app].
  - now rewrite replace_all_copy by discriminate.
  - rewrite replace_all_copy.
    + f_equal. apply IH.
      * intros H. apply Hn. right; exact H.
      * intros pre E. apply (Hd (c :: pre)). now rewrite E.
    + (* a match at c would end at the first slash, the one after g: then c :: g is ".." *)
      intros x E. apply (app_sep_inj sl (c :: g) dd) in E; [exact (Hd [] (proj1 E))|exact Hn|].
      intros [H|[H|[]]]; discriminate H.
Qed.

Lemma up_join segs : Forall (fun g => ~ In sl g) segs -> Forall not_dd_end segs -> replace_all up PH (join_sl segs) = join_sl segs.
Proof.
  induction 1 as [|g r Hg Hr IH]; intros Hd; [reflexivity|]. inversion Hd.
  destruct r as [|g2 r].
  - apply (replace_all_id up PH sl); [right; right; left; reflexivity|exact Hg].
  - change (join_sl (g :: g2 :: r)) with (g ++ sl :: join_sl (g2 :: r)). rewrite up_seg by assumption. now rewrite IH.
Qed.

Lemma split_free x : forall cur t, ~ In sl x -> split_sl (x ++ t) cur = split_sl t (rev x ++ cur).
Proof.
  induction x as [|c x IH]; intros cur t Hn; cbn [app split_sl]; [reflexivity|].
  destruct (Ascii.eqb_spec c sl) as [->|_]; [exfalso; apply Hn; left; reflexivity|].
  rewrite IH by (intros H; apply Hn; right; exact H). cbn [rev]. now rewrite <- app_assoc.
Qed.

Lemma split_join segs : segs <> [] -> Forall (fun g => ~ In sl g) segs -> split_sl (join_sl segs) [] = segs.
Proof.
  intros Hne Hn. induction Hn as [|g r Hg Hr IH]; [congruence|]. destruct r as [|g2 r].
  - cbn [join_sl]. rewrite <- (app_nil_r g) at 1. rewrite split_free by exact Hg.
    cbn [split_sl]. now rewrite app_nil_r, rev_involutive.
  - change (join_sl (g :: g2 :: r)) with (g ++ sl :: join_sl (g2 :: r)). rewrite split_free by exact Hg.
    cbn [split_sl]. rewrite Ascii.eqb_refl, app_nil_r, rev_involutive. now rewrite IH.
Qed.

Lemma join_glued x g r : join_sl ((x ++ g) :: r) = x ++ join_sl (g :: r).
Proof. destruct r; cbn [join_sl]; [reflexivity|]. now rewrite <- app_assoc. Qed.

Lemma proper_noslash segs : Forall proper segs -> Forall (fun g => ~ In sl g) segs.
Proof. apply Forall_impl. intros g Hg. apply proper_iff in Hg. tauto. Qed.

(* the paths the bridge covers: canonical, and no segment ends in ".." (such a segment and the slash after it would be
   read as "../": finding D15) *)
Definition nice (p : opath) : Prop :=
  canonical p /\ match p with ORel _ segs | OAbs segs => Forall not_dd_end segs end.

Lemma temp_path_join p : nice p -> temp_path (render p) = join_sl (PathFS.enc p).
Proof.
  intros [Hc Hd]. unfold temp_path. change (s2l "../") with up. change (s2l "__parent__") with PH.
  destruct p as [k segs|segs]; destruct Hc as [Hne Hp]; cbn [render].
  all: pose proof (proper_noslash segs Hp) as Hn.
  all: destruct segs as [|s r]; [congruence|].
  - rewrite up_rep, up_join by assumption. destruct k as [|k]; cbn [rep PathFS.enc].
    + (* no placeholder: a proper first segment does not start with a slash *)
      apply Forall_cons_iff in Hp. destruct Hp as [Hs _]. apply proper_iff in Hs. destruct Hs as (Hs0 & _ & _ & Hs1).
      destruct s as [|c s]; [congruence|]. change (c :: s) with ([c] ++ s). rewrite join_glued. cbn [app].
      destruct (Ascii.eqb_spec c sl) as [->|_]; [exfalso; apply Hs1; left; reflexivity|reflexivity].
    + (* the placeholder starts with '_' *) rewrite join_glued. reflexivity.
  - (* a slash does not start "../" *)
    rewrite replace_all_copy by discriminate. rewrite up_join by assumption. rewrite Ascii.eqb_refl. reflexivity.
Qed.

Theorem temp_path_is_enc p : nice p -> split_sl (temp_path (render p)) [] = PathFS.enc p.
Proof.
  intros H. rewrite temp_path_join by exact H. destruct (enc_proper p (proj1 H)) as [Hp Hne].
  apply split_join; [exact Hne|apply proper_noslash, Hp].
Qed.
