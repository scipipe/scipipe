(* Every step preserves Inv (step_inv).  The frame rules reduce a step at v to v and its incident edges, and a move of
   one of v's two goroutines to the edges on that goroutine's side. *)
From Coq Require Import List Lia PeanoNat.
Import ListNotations.
Require Import Lib NetA Inv.

(* ei_q speaks of snt - rcv, and LSend makes snt a successor: simpl would turn the difference into a match that lia does
   not read *)
Local Arguments Nat.sub : simpl never.

Section Pres.
Variable c : cfg.
Variable len : nat -> nat.
Hypothesis WF : wf c len.

Notation NodeInvN := (NodeInvN c len).
Notation EdgeInvN := (EdgeInvN c).
Notation Inv := (Inv c len).

Lemma length_set_nth l i b : length (set_nth l i b) = length l.
Proof. revert i; induction l as [|a r IH]; intros [|i]; simpl; auto. Qed.

Lemma src_ne_dst e : e < E c -> esrc c e <> edst c e.
Proof. intros He. destruct (wf_topo _ _ WF e He). lia. Qed.

Lemma frame s s' v n' :
  Inv s ->
  (forall w, ns s' w = if Nat.eqb w v then n' else ns s w) ->
  NodeInvN v n' ->
  (forall e, e < E c -> esrc c e = v -> EdgeInvN e (es s' e) n' (ns s (edst c e))) ->
  (forall e, e < E c -> edst c e = v -> EdgeInvN e (es s' e) (ns s (esrc c e)) n') ->
  (forall e, e < E c -> esrc c e <> v -> edst c e <> v -> es s' e = es s e) ->
  Inv s'.
Proof.
  intros [HN HE] Hns Hn Hsrc Hdst Hoth. split.
  - intros w Hw. unfold NodeInv. rewrite Hns. destruct (Nat.eqb_spec w v); subst; auto. apply HN; auto.
  - intros e He. unfold EdgeInv. rewrite !Hns. pose proof (src_ne_dst e He) as Hsd.
    destruct (Nat.eqb_spec (esrc c e) v) as [Hs|Hs]; destruct (Nat.eqb_spec (edst c e) v) as [Hd|Hd]; try congruence.
    + apply Hsrc; auto.
    + apply Hdst; auto.
    + rewrite Hoth; auto. apply HE; auto.
Qed.

(* An edge sees its source only through [eN + sx] and whether it has finished, its destination only through
   [cN + hand + rx]: a node may change in any way that keeps these. *)
Lemma edge_src e x nu nu' nw : EdgeInvN e x nu nw ->
  eN nu' + sx nu' e = eN nu + sx nu e -> (rn nu' = RFin <-> rn nu = RFin) -> EdgeInvN e x nu' nw.
Proof.
  intros [e1 e2 e3 e4] H1 H2. constructor; auto.
  - (* ei_snt *) congruence.
  - (* ei_clo *) rewrite H2. exact e4.
Qed.
Arguments edge_src {e x nu nu' nw}.

Lemma edge_dst e x nu nw nw' : EdgeInvN e x nu nw ->
  cN nw' + hand nw' + rx nw' e = cN nw + hand nw + rx nw e -> EdgeInvN e x nu nw'.
Proof. intros [e1 e2 e3 e4] H1. constructor; auto. congruence. Qed.
Arguments edge_dst {e x nu nw nw'}.

(* A node is two processes.  A move of createTasks keeps [rn] and [eN], so only the in-edges of v have to be looked at:
   each keeps its invariant with the new node at its destination; symmetrically for a move of the Run loop.
   [q'] is the edge state after the step, as [step_lstep] gives it. *)
Lemma frame_ct s s' v n' q' : Inv s -> ns s' = upd (ns s) v n' -> (forall e, es s' e = q' e) ->
  rn n' = rn (ns s v) -> eN n' = eN (ns s v) -> NodeInvN v n' ->
  (forall e, In e (ins c v) -> EdgeInvN e (es s e) (ns s (esrc c e)) (ns s v) -> EdgeInvN e (q' e) (ns s (esrc c e)) n') ->
  (forall e, ~ In e (ins c v) -> q' e = es s e) -> Inv s'.
Proof.
  intros HI Hns Hes Hr Hn NI Hin Hoth. apply frame with (s := s) (v := v) (n' := n'); auto.
  - intros w. rewrite Hns. reflexivity.
  - intros e He Hs. rewrite Hes, Hoth.
    + apply (edge_src (nu := ns s v)); [rewrite <- Hs; apply HI, He|unfold sx; now rewrite Hr, Hn|now rewrite Hr].
    + rewrite in_ins. intros [_ Hd]. apply (src_ne_dst e He). congruence.
  - intros e He Hd. rewrite Hes. apply Hin; [apply in_ins; auto|]. rewrite <- Hd. apply HI, He.
  - intros e He Hs Hd. rewrite Hes. apply Hoth. rewrite in_ins. tauto.
Qed.
Arguments frame_ct {s s' v n' q'}.

Lemma frame_rn s s' v n' q' : Inv s -> ns s' = upd (ns s) v n' -> (forall e, es s' e = q' e) ->
  ct n' = ct (ns s v) -> cN n' = cN (ns s v) -> NodeInvN v n' ->
  (forall e, In e (outs c v) -> EdgeInvN e (es s e) (ns s v) (ns s (edst c e)) -> EdgeInvN e (q' e) n' (ns s (edst c e))) ->
  (forall e, ~ In e (outs c v) -> q' e = es s e) -> Inv s'.
Proof.
  intros HI Hns Hes Hc Hn NI Hout Hoth. apply frame with (s := s) (v := v) (n' := n'); auto.
  - intros w. rewrite Hns. reflexivity.
  - intros e He Hs. rewrite Hes. apply Hout; [apply in_outs; auto|]. rewrite <- Hs. apply HI, He.
  - intros e He Hd. rewrite Hes, Hoth.
    + apply (edge_dst (nw := ns s v)); [rewrite <- Hd; apply HI, He|unfold hand, rx; now rewrite Hc, Hn].
    + rewrite in_outs. intros [_ Hs]. apply (src_ne_dst e He). congruence.
  - intros e He Hs Hd. rewrite Hes. apply Hoth. rewrite in_outs. tauto.
Qed.
Arguments frame_rn {s s' v n' q'}.

Lemma existsb_cons_ne e y todo : e <> y -> existsb (Nat.eqb e) (y :: todo) = existsb (Nat.eqb e) todo.
Proof. intros H. simpl. destruct (Nat.eqb_spec e y); [congruence|reflexivity]. Qed.

(* NodeInvN survives a change of [ct] alone, given the clauses that speak of the new value x.  [ct n <> CtDone] holds
   wherever createTasks moves; it keeps ni_fin, since by ni_fin of n it makes rn n <> RFin. *)
Lemma node_with_ct v n x : NodeInvN v n -> ct n <> CtDone ->
  cN n + match x with CtHand => 1 | _ => 0 end <= len v ->
  match x with CtDone | CtRecv _ true => cN n = len v | _ => True end ->
  match x with
  | CtRecv todo _ => NoDup todo /\ (forall y, In y todo -> In y (ins c v)) /\ slen c v = None
  | _ => True
  end -> NodeInvN v (with_ct n x).
Proof.
  intros NI Hnd Hle Hd Hr. constructor; simpl; auto.
  - apply (ni_count NI).
  - intros F. destruct (ni_fin NI F) as [D _]. contradiction.
  - intros ->. exact Hd.
  - intros todo ->. exact Hd.
  - intros todo saw ->. exact Hr.
  - apply (ni_stodo NI).
Qed.

(* The twin of node_with_ct for the Run loop: NodeInvN survives a change of [rn], [eN] and [fl], given the count and the
   clauses about the new rn.  For RFin it asks [ct n], which the guard of LFin gives, and [fl n'], the new queue;
   eN n' = cN n then follows from the count. *)
Lemma node_run {v n n'} : NodeInvN v n -> ct n' = ct n -> cN n' = cN n ->
  eN n' + length (fl n') + sending n' = cN n ->
  (rn n' = RFin -> ct n = CtDone /\ fl n' = []) ->
  (forall todo, rn n' = RSend todo -> NoDup todo /\ forall x, In x todo -> In x (outs c v)) -> NodeInvN v n'.
Proof.
  intros NI Hc Hn Hcount Hfin Hs. constructor; unfold hand; rewrite ?Hc, ?Hn; try apply NI; auto.
  intros F. destruct (Hfin F) as [D E]. unfold sending in Hcount. rewrite F, E in Hcount. simpl in Hcount.
  repeat split; auto. lia.
Qed.

Theorem step_inv s a s' : Inv s -> node_of a < nn c -> step c s a = Some s' -> Inv s'.
Proof.
  intros HI Hv Hstep. destruct (step_lstep Hstep) as (n' & q' & HL & Hns & Hes).
  pose proof (proj1 HI _ Hv) as NI.
  (* the two counting facts of the node; each rule reads them with its guards *)
  pose proof (ni_le NI) as Hle. pose proof (ni_total NI) as Htot. unfold hand, sending in Hle, Htot.
  destruct HL; simpl in Hv, Hns, NI, Hle, Htot.
  - (* LBeginMore: a source has no in-edge *)
    destruct (wf_src _ _ WF v L Sl) as [<- Hins].
    apply (frame_ct HI Hns Hes); auto.
    + apply node_with_ct; auto; try congruence. lia.
    + intros e. rewrite Hins. intros [].
  - (* LBeginEnd *)
    rewrite Ct in Hle. destruct (wf_src _ _ WF v L Sl) as [<- Hins].
    apply (frame_ct HI Hns Hes); auto.
    + (* cN = len v: Hle, Ge *)
      apply node_with_ct; auto; try congruence. lia.
    + intros e. rewrite Hins. intros [].
  - (* LBeginRound *)
    rewrite Ct in Hle.
    destruct (is_perm_in Pm (nodup_ins c v)) as [Hin ND].
    apply (frame_ct HI Hns Hes); auto.
    + apply node_with_ct; auto; try congruence.
      split; [|split]; auto. intros y. apply Hin.
    + intros e He EI. apply (edge_dst EI). unfold hand, rx. simpl. rewrite Ct.
      apply Hin, existsb_eqb_In in He. rewrite He. reflexivity.
  - (* LRecv *)
    rewrite Ct in Hle.
    destruct (ni_rtodo NI _ _ Ct) as (ND & Hsub & Hsl). destruct (recv_head WF HI Hv Ct) as [Hy R].
    pose proof (recv_not_saw WF HI Hv Ct Q) as ->.
    apply NoDup_cons_iff in ND. destruct ND as [Hnin ND].
    apply (frame_ct HI Hns Hes); auto.
    + apply node_with_ct; auto; try congruence.
      split; [|split]; auto. intros z Hz. apply Hsub. right. exact Hz.
    + intros e He EI. unfold upd. destruct (Nat.eqb_spec e y) as [->|Hne].
      * destruct EI as [y1 _ y3 y4]. constructor; simpl; auto; try lia.
        (* ei_rcv: R *) unfold hand, rx. simpl. apply existsb_eqb_false in Hnin. rewrite Hnin. lia.
      * apply (edge_dst EI). unfold hand, rx. rewrite Ct. now rewrite existsb_cons_ne.
    + intros e He. apply upd_other. congruence.
  - (* LRecvClosed *)
    rewrite Ct in Hle.
    destruct (ni_rtodo NI _ _ Ct) as (ND & Hsub & Hsl). destruct (first_closed WF HI Hv Ct Q Cl) as [Hc Hall].
    apply NoDup_cons_iff in ND. destruct ND as [Hnin ND].
    apply (frame_ct HI Hns Hes); auto.
    + apply node_with_ct; auto; try congruence.
      split; [|split]; auto. intros z Hz. apply Hsub. right. exact Hz.
    + intros e He EI. apply (edge_dst EI). unfold hand, rx. rewrite Ct. destruct saw; auto.
      apply (Hall eq_refl), existsb_eqb_In in He. rewrite He. reflexivity.
  - (* LEndClosed *)
    rewrite Ct in Hle.
    pose proof (ni_saw NI _ Ct) as Hc.
    apply (frame_ct HI Hns Hes); auto.
    + apply node_with_ct; auto; congruence.
    + intros e He EI. apply (edge_dst EI). unfold hand, rx. rewrite Ct. reflexivity.
  - (* LEndRound: there is room for one more task, because some in-edge has carried an item for it *)
    destruct (ni_rtodo NI _ _ Ct) as (_ & _ & Hsl).
    assert (Hlt : cN (ns s v) + 1 <= len v).
    { pose proof (wf_proc _ _ WF v Hv Hsl) as Hne. destruct (ins c v) as [|e r] eqn:Hi; [congruence|].
      assert (He : In e (ins c v)) by (rewrite Hi; left; reflexivity).
      destruct (in_edge WF HI He) as (R & ? & ?). unfold hand, rx in R. rewrite Ct in R. simpl in R. lia. }
    apply (frame_ct HI Hns Hes); auto.
    + apply node_with_ct; auto; congruence.
    + intros e He EI. apply (edge_dst EI). unfold hand, rx. rewrite Ct. simpl. lia.
  - (* LHand *)
    rewrite Ct in Hle. rewrite Rn in Htot.
    apply (frame_ct HI Hns Hes); auto.
    + constructor; unfold sending, hand; simpl; intros; try discriminate.
      * (* ni_count *) rewrite app_length. simpl. lia.
      * (* ni_le *) lia.
    + intros e He EI. apply (edge_dst EI). unfold hand, rx. simpl. rewrite Ct. lia.
  - (* LExit *)
    apply (frame_rn HI Hns Hes); auto.
    + apply (node_run NI); auto; unfold sending; simpl.
      * now rewrite length_set_nth.
      * intros F. destruct (ni_fin NI F) as (_ & B & _). rewrite B in Fl. destruct i; discriminate.
      * apply (ni_stodo NI).
    + intros e He EI. apply (edge_src EI); [reflexivity|simpl; reflexivity].
  - (* LPop *)
    rewrite Rn, Fl in Htot.
    destruct (is_perm_in Pm (nodup_outs c v)) as [Hin ND].
    apply (frame_rn HI Hns Hes); auto.
    + apply (node_run NI); auto; unfold sending; simpl; try discriminate.
      * simpl in Htot. lia.
      * intros td D. injection D as <-. split; auto. intros x. apply Hin.
    + intros e He EI. apply (edge_src EI).
      * unfold sx. simpl. rewrite Rn. apply Hin, existsb_eqb_In in He. now rewrite He.
      * rewrite Rn. split; discriminate.
  - (* LSend *)
    rewrite Rn in Htot.
    destruct (ni_stodo NI _ Rn) as (ND & Hsub). assert (Hx : In x (outs c v)) by (apply Hsub; left; reflexivity).
    apply NoDup_cons_iff in ND. destruct ND as [Hnin ND].
    apply (frame_rn HI Hns Hes); auto.
    + apply (node_run NI); auto; unfold sending; try discriminate.
      intros td D. injection D as <-. split; auto. intros z Hz. apply Hsub. right. exact Hz.
    + intros e He EI. unfold upd. destruct (Nat.eqb_spec e x) as [->|Hne].
      * destruct EI as [x1 x2 x3 x4]. rewrite (sx_head Rn) in x1. constructor; simpl; auto; try lia.
        -- (* ei_snt *) unfold sx. simpl. apply existsb_eqb_false in Hnin. rewrite Hnin. lia.
        -- (* ei_clo *) rewrite x4, Rn. split; discriminate.
      * apply (edge_src EI).
        -- unfold sx. rewrite Rn. now rewrite existsb_cons_ne.
        -- rewrite Rn. split; discriminate.
    + intros e He. apply upd_other. congruence.
  - (* LEndSend *)
    rewrite Rn in Htot.
    apply (frame_rn HI Hns Hes); auto.
    + apply (node_run NI); auto; unfold sending; simpl; try discriminate. lia.
    + intros e He EI. apply (edge_src EI).
      * unfold sx. rewrite Rn. simpl. lia.
      * rewrite Rn. split; discriminate.
  - (* LFin *)
    rewrite Rn, Fl in Htot.
    apply (frame_rn HI Hns Hes); auto.
    + apply (node_run NI); auto; unfold sending; simpl; try discriminate. rewrite Fl. exact Htot.
    + intros e He [e1 e2 e3 e4]. apply existsb_eqb_In in He. rewrite He. unfold sx in e1. rewrite Rn in e1.
      constructor; auto. split; reflexivity.
    + intros e He. apply existsb_eqb_false in He. now rewrite He.
Qed.

End Pres.
