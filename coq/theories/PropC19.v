(* C19 -- Bundled components compute what they advertise.
   There is no `_code_conforms`: the models (`comb`, `split` with its loop `go`, `lines_of`, `selector`, `concat_out`) are
   extracted and run against the Go code, T2 against the exported combine functions, T3 against the real components in
   workflows (DESIGN section 7, C19); of T1 only the call cones, below. *)
From Coq Require Import List Bool.
Import ListNotations.
From SP Require Import Comb Splitter Components.
From SP Require Readers.
From SP Require Import Skel Gen ExpectedCones.

(* combinators: for every number of ports, every stream lengths (0 included), every element type: out-stream j is column j
   of the Cartesian product -- the out-streams are aligned and together enumerate each combination exactly once *)
Theorem C19_product : forall (A : Type) (ss : list (list A)) (j : nat), j < length ss ->
  map Some (nth j (comb A ss) []) = col A j (prod A ss).
Proof. exact Comb.comb_is_product. Qed.

(* every out-stream is as long as the product *)
Theorem C19_product_lengths : forall (A : Type) (ss : list (list A)) (j : nat), j < length ss ->
  length (nth j (comb A ss) []) = length (prod A ss).
Proof. exact Comb.comb_lengths. Qed.

(* the product is what it should be: a tuple occurs in it iff its j-th member occurs in the j-th stream *)
Theorem C19_product_is_cartesian : forall (A : Type) (ss : list (list A)) (tup : list A),
  In tup (prod A ss) <-> Forall2 (fun a s => In a s) tup ss.
Proof. exact Comb.prod_spec. Qed.

(* the product has (product of the stream lengths) tuples *)
Theorem C19_product_size : forall (A : Type) (ss : list (list A)), length (prod A ss) = lprod A ss.
Proof. exact Comb.prod_length. Qed.

(* with duplicate-free streams no tuple occurs twice in the product (with C19_product_is_cartesian: every combination
   exactly once) *)
Theorem C19_product_exactly_once : forall (A : Type) (ss : list (list A)), Forall (@NoDup A) ss -> NoDup (prod A ss).
Proof. exact Comb.prod_nodup. Qed.

(* selector: exactly the aligned tuples all of whose members satisfy the predicate *)
Theorem C19_selector : forall (A : Type) (pred : A -> bool) (rows : list (list A)) (r : list A),
  In r (selector pred rows) <-> In r rows /\ forall x, In x r -> pred x = true.
Proof. exact @Components.selector_spec. Qed.

(* ... in arrival order: selecting from rows1 ++ rows2 is selecting from each, in that order *)
Theorem C19_selector_order : forall (A : Type) (pred : A -> bool) (rows1 rows2 : list (list A)),
  selector pred (rows1 ++ rows2) = selector pred rows1 ++ selector pred rows2.
Proof. exact @Components.selector_order. Qed.

(* splitter: for every byte string and every line limit: the parts concatenate back to the input with its last line
   terminated and CR before LF dropped (`normalise`) *)
Theorem C19_split_bytes : forall (n : nat) (s : list byte), concat (split_bytes n s) = normalise s.
Proof. intros n s. unfold split_bytes. exact (Splitter.C19_split_bytes n s). Qed.

(* for every line limit n >= 1 no part is longer than n lines *)
Theorem C19_split_bound : forall (n : nat) (s : list byte), 1 <= n ->
  Forall (fun p => length p <= n) (split n (lines_of s)).
Proof. intros n s H. exact (Splitter.split_bound n (lines_of s) H). Qed.

(* worked examples: an even split leaves a last, empty part; CR LF becomes LF and a missing final LF is added; the empty
   file gives one empty part *)
Theorem C19_split_example :
  split_bytes 2 [97; 10; 98; 10; 99; 10; 100; 10] = [[97; 10; 98; 10]; [99; 10; 100; 10]; []]
  /\ split_bytes 2 [97; 10; 98; 13; 10; 99] = [[97; 10; 98; 10]; [99; 10]]
  /\ split_bytes 3 [] = [[]].
Proof. vm_compute. repeat split. Qed.

(* concatenator: the output is every input's content followed by a newline, in arrival order *)
Theorem C19_concat_unfold : forall (c : list nat) (r : list (list nat)),
  concat_out [] = [] /\ concat_out (c :: r) = c ++ [LF] ++ concat_out r.
Proof. intros c r. split; [reflexivity|]. unfold concat_out. simpl. now rewrite <- app_assoc. Qed.

(* the output for inputs arriving as a then b is the output for a followed by the output for b *)
Theorem C19_concat : forall a b : list (list nat), concat_out (a ++ b) = concat_out a ++ concat_out b.
Proof. exact Components.concat_out_app. Qed.

(* FileToParamsReader and CommandToParams hand what they read to bufio.Scanner / ScanLines (`reader_lines` = `lines_of`, the
   executable model the C19 check runs against both components) and emit one parameter per token: exactly the lines, in order *)
Theorem C19_reader_emits_the_lines : forall ls : list (list byte),
  Forall Readers.no_lf ls -> Forall Readers.no_trailing_cr ls ->
  reader_lines (concat (map (fun l => l ++ [LF]) ls)) = ls.
Proof. exact Readers.reader_emits_the_lines. Qed.

(* a non-empty last line without a final newline is emitted as well *)
Theorem C19_reader_unterminated_last_line : forall (ls : list (list byte)) (last : list byte),
  Forall Readers.no_lf ls -> Forall Readers.no_trailing_cr ls -> Readers.no_lf last -> Readers.no_trailing_cr last -> last <> [] ->
  reader_lines (concat (map (fun l => l ++ [LF]) ls) ++ last) = ls ++ [last].
Proof. exact Readers.reader_emits_an_unterminated_last_line. Qed.

(* a command that prints nothing, an empty parameter file: no parameter at all (not one empty value) *)
Theorem C19_reader_of_nothing_emits_nothing : reader_lines [] = [].
Proof. exact Readers.reader_of_nothing_emits_nothing. Qed.

(* blank lines are items: neither dropped nor merged *)
Theorem C19_reader_keeps_blank_lines : reader_lines [97; LF; LF; 98; LF] = [[97]; []; [98]].
Proof. exact Readers.reader_keeps_blank_lines. Qed.

(* T1, call cones (DESIGN 11.26, ExpectedCones.v): every function of scipipe reachable from the functions this property's
   models stand for is one the models were compared with. *)
Theorem C19_cone_conforms :
  strs_eqb cone_components_FileCombinator_Run exp_cone_components_FileCombinator_Run
  && strs_eqb cone_components_ParamCombinator_Run exp_cone_components_ParamCombinator_Run
  && strs_eqb cone_components_IPSelectorSync_Run exp_cone_components_IPSelectorSync_Run
  && strs_eqb cone_components_Concatenator_Run exp_cone_components_Concatenator_Run
  && strs_eqb cone_components_FileSplitter_Run exp_cone_components_FileSplitter_Run
  && strs_eqb cone_components_FileSource_Run exp_cone_components_FileSource_Run
  && strs_eqb cone_components_ParamSource_Run exp_cone_components_ParamSource_Run
  && strs_eqb cone_components_StreamToSubStream_Run exp_cone_components_StreamToSubStream_Run
  && strs_eqb cone_components_MapToTags_Run exp_cone_components_MapToTags_Run = true.
Proof. vm_compute. reflexivity. Qed.

Print Assumptions C19_product.
Print Assumptions C19_product_lengths.
Print Assumptions C19_product_is_cartesian.
Print Assumptions C19_product_size.
Print Assumptions C19_product_exactly_once.
Print Assumptions C19_concat_unfold.
Print Assumptions C19_selector.
Print Assumptions C19_selector_order.
Print Assumptions C19_split_bytes.
Print Assumptions C19_split_bound.
Print Assumptions C19_split_example.
Print Assumptions C19_concat.
Print Assumptions C19_cone_conforms.
Print Assumptions C19_reader_emits_the_lines.
Print Assumptions C19_reader_unterminated_last_line.
Print Assumptions C19_reader_of_nothing_emits_nothing.
Print Assumptions C19_reader_keeps_blank_lines.
