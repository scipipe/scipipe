(* The link between the concurrent TaskFS machine and the sequential reference `result`: in every state that satisfies
   the invariant, whatever a task has committed is the value the reference run computes for it. *)
From Coq Require Import List Arith Lia.
Import ListNotations.
Require Import Result TaskFS TInv TPres.

Section Glue.
Variable c : cfg.
Variable f0 : fs.
Hypothesis WF : wfc c.

Definition tl (n : nat) : list task := map (tk c) (seq 0 n).

Lemma in_tl t n : In t (tl n) <-> exists i, i < n /\ t = tk c i.
Proof.
  unfold tl. rewrite in_map_iff. split.
  - intros [i [E Hi]]. apply in_seq in Hi. exists i. split; [lia|auto].
  - intros [i [Hi E]]. exists i. split; auto. apply in_seq. lia.
Qed.

Lemma wf_seq k : forall a, a + k <= nt c -> wf (map (tk c) (seq a k)).
Proof.
  induction k as [|k IH]; intros a Ha; [exact I|].
  repeat split.
  - intros t' Ht' x Hx. apply in_map_iff in Ht'. destruct Ht' as [i [<- Hi]]. apply in_seq in Hi.
    apply (w_disj c WF a i x); auto; lia.
  - intros t' Ht' x Hx. destruct Ht' as [<-|Ht'].
    + apply (w_topo c WF a a x); auto; lia.
    + apply in_map_iff in Ht'. destruct Ht' as [i [<- Hi]]. apply in_seq in Hi.
      apply (w_topo c WF a i x); auto; lia.
  - intros xs cs H. apply (w_len c WF a xs cs); auto; lia.
  - apply IH. lia.
Qed.

Lemma wfc_wf : wf (tl (nt c)).
Proof. unfold tl. apply wf_seq. lia. Qed.

(* the reference run of the first n tasks; the theorems take n = nt c, the whole run *)
Definition pre (n : nat) := result (tl n) f0.

Lemma write_all_tmp os : forall f cs, write_all f os cs = write_tmp f os cs [].
Proof. induction os as [|o os IH]; intros f [|c0 cs]; simpl; auto. Qed.

Lemma lookup_write_all f os cs x : NoDup os -> length cs = length os -> In x os ->
  write_all f os cs x = lookup x os cs.
Proof. rewrite write_all_tmp. exact (write_tmp_spec f os cs [] x). Qed.

Variable fR : fs.
Hypothesis HR : pre (nt c) = Some fR.

Lemma ref_eqn t : t < nt c -> task_eqn (tk c t) f0 fR.
Proof. intros Ht. apply (result_eqns _ wfc_wf f0 fR HR). apply in_tl. eauto. Qed.

Lemma ref_frame x : (forall t, t < nt c -> ~ In x (tout (tk c t))) -> fR x = f0 x.
Proof.
  intros H. apply (result_frame HR). intros t Ht. apply in_tl in Ht. destruct Ht as [i [Hi ->]]. auto.
Qed.

(* second clause: the reference run skips a skipped task too *)
Lemma committed_is_ref s : Inv c f0 s ->
  forall t, t < nt c ->
    (forall x, In x (tout (tk c t)) -> committed (pcs s t) x -> fin s x = fR x) /\
    (pcs s t = DoneSkip -> forall x, In x (tout (tk c t)) -> fR x = f0 x).
Proof.
  intros [HT HG] t. induction t as [t IH] using lt_wf_ind. intros Ht.
  destruct (HT t Ht) as [Tfin Tabs Tsem _ _ Tdeps Tskip]. pose proof (ref_eqn t Ht) as EQ. unfold task_eqn in EQ.
  split.
  - intros x Hx Hc.
    pose proof (committed_past_cmd _ _ Hc) as Hpc. pose proof (past_cmd_chk _ Hpc) as Hpk.
    rewrite (proj2 any_exists_false (Tabs Hpk)) in EQ. destruct EQ as [cs [S A]].
    (* the task ran on the inputs the reference run gives it.  Were an input different in the two stores, it could have no
       producer -- a producer is an earlier task, which is done, so the induction hypothesis applies to it -- and then it is
       a source file, the same in both *)
    assert (Hinp : map fR (tin (tk c t)) = map (fin s) (tin (tk c t))).
    { apply map_ext_in. intros y Hy. destruct (opt_dec (fR y) (fin s y)) as [E|E]; [exact E|exfalso].
      assert (Hno : forall d, d < nt c -> ~ In y (tout (tk c d))).
      { intros d Hd Hyd. apply E.
        assert (Hdt : d < t).
        { apply Nat.nle_gt. intros L. exact (w_topo c WF t d y Ht Hd L Hy Hyd). }
        assert (Hw : pcs s t <> Wait) by (intros W; rewrite W in Hpc; discriminate).
        pose proof (Tdeps Hw d Hdt (proj2 (shares_true _ _) (ex_intro _ y (conj Hyd Hy)))) as Hdone.
        destruct (IH d Hdt Hd) as [IHc IHs].
        destruct (pcs s d) eqn:Pd; try discriminate.
        + (* DoneRan *) symmetry. apply IHc; simpl; auto.
        + (* DoneSkip *) rewrite (IHs eq_refl y Hyd). symmetry. apply (t_fin _ _ _ _ (HT d Hd) y Hyd). rewrite Pd. tauto. }
      apply E. rewrite (HG y Hno). apply ref_frame, Hno. }
    rewrite Hinp, (Tsem Hpc) in S. injection S as <-.
    rewrite (proj1 (proj1 (Tfin x Hx) Hc)), (A x Hx).
    symmetry. apply lookup_write_all; auto.
    + apply (w_nodup c WF); auto.
    + eapply (w_len c WF); auto.
  - intros Hs x Hx. rewrite (Tskip Hs) in EQ. exact (EQ x Hx).
Qed.

End Glue.
Print Assumptions committed_is_ref.
