(* The replay engine instantiated with four transition systems -- RS: the slots; RT: tasks and the file store; RN: the
   process network with its histories; RP: one in-port with several upstreams (fan-in) -- and what acceptance of an
   observed history means: the history is an execution of the system from its initial state, so every theorem about
   reachable states applies to the state the real run was observed in.
   RSI, RTI, RNI, RPI are a stable interface for the extracted driver: constructors and observers under names that do not
   depend on how extraction disambiguates the systems. *)
From Coq Require Import List Lia Bool PeanoNat.
Import ListNotations.
From SP Require Import Lib Replay.
From SP Require Slots SlotsTop Result TaskFS TInv Cor NetA Inv Top Ghost NetTop Port.

Module RS.
Import Slots SlotsTop.

Definition slots_replay (cap0 : nat) (cs : list nat) (script : list (line state nat)) : verdict state nat :=
  replay state nat step (init cap0 cs) script.

(* an accepted slot history is an execution of the slot machine; in its last state -- and, the script being arbitrary,
   in the state after every prefix of the observed log -- the executing tasks hold at most [cap0] cores *)
Theorem slots_replay_explained cap0 cs script s' sched stp :
  slots_replay cap0 cs script = Accepted s' sched stp ->
  Slots.run (init cap0 cs) sched = Some s' /\ tsum executing (tasks s') <= cap0.
Proof.
  (* Slots.run has no parameter in front of the state: it is the engine's run, by computation *)
  intros H. apply replay_sound in H. split; [exact H|exact (never_exceeded cap0 cs sched s' H)].
Qed.
End RS.

Module RT.
Import Result TaskFS TInv Cor.

Definition task_replay (c : cfg) (f0 : fs) (left0 : nat -> bool) (script : list (line st act)) : verdict st act :=
  replay st act (step c) (init c f0 left0) script.

Lemma run_same c s l : Replay.run st act (step c) s l = TaskFS.run c s l.
Proof. revert s. induction l as [|a r IH]; simpl; intros s; auto. destruct (step c s a); auto. Qed.

(* a task table given as data: per task its input locations, output locations, the contents its command is expected
   to read and what it writes ([None]: the command fails); the command semantics of the table rejects any other input *)
Definition trow := (list nat * list nat * list (option nat) * option (list nat))%type.

Fixpoint ocont_eqb (a b : list (option nat)) : bool :=
  match a, b with
  | [], [] => true
  | Some x :: r, Some y :: r' => Nat.eqb x y && ocont_eqb r r'
  | None :: r, None :: r' => ocont_eqb r r'
  | _, _ => false
  end.

Definition row_task (r : trow) : task :=
  let '(i, o, expect, outc) := r in
  {| tin := i; tout := o; sem := fun xs => if ocont_eqb xs expect then outc else None |}.

Definition table_cfg (rows : list trow) : cfg :=
  {| nt := length rows; tk := fun t => row_task (nth t rows ([], [], [], None)) |}.

Definition row_ok (r : trow) : bool :=
  let '(i, o, expect, outc) := r in
  match outc with Some cs => Nat.eqb (length cs) (length o) | None => true end.

Fixpoint nodupb (l : list nat) : bool :=
  match l with [] => true | a :: r => negb (existsb (Nat.eqb a) r) && nodupb r end.

Definition disjb (l1 l2 : list nat) : bool := forallb (fun x => negb (existsb (Nat.eqb x) l2)) l1.

(* decidable well-formedness of a table: outputs duplicate free and pairwise disjoint, no task reads what it or a later
   task writes, the number of contents matches the number of outputs *)
Fixpoint rows_ok (rows : list trow) : bool :=
  match rows with
  | [] => true
  | r :: rest =>
    let '(i, o, _, _) := r in
    row_ok r && nodupb o && disjb i o
    && forallb (fun r' => let '(_, o', _, _) := r' in disjb o o' && disjb i o') rest
    && rows_ok rest
  end.

Lemma disjb_sound {l1 l2 x} : disjb l1 l2 = true -> In x l1 -> ~ In x l2.
Proof.
  unfold disjb. rewrite forallb_forall. intros H H1.
  apply existsb_eqb_false, negb_true_iff, H, H1.
Qed.

Lemma disjb_sym_sound l1 l2 x : disjb l1 l2 = true -> In x l2 -> ~ In x l1.
Proof. intros H H2 H1. exact (disjb_sound H H1 H2). Qed.

(* by induction on the table: task 0 is the first row, task S t is task t of the rest, so every clause of [wfc] is what
   [rows_ok] checks of the first row, alone or against a later one, or holds of the rest *)
Theorem table_wfc rows : rows_ok rows = true -> wfc (table_cfg rows).
Proof.
  induction rows as [|[[[i o] e] cc] rest IH]; intros H.
  { (* no rows, no tasks *) constructor; simpl; lia. }
  simpl in H. apply andb_prop in H as [[[[Hr Hn]%andb_prop Hio]%andb_prop HF]%andb_prop Hrest].
  specialize (IH Hrest).
  (* the first row against row d of the rest *)
  assert (Later : forall d x, d < length rest -> In x o \/ In x i -> ~ In x (tout (tk (table_cfg rest) d))).
  { intros d x Hd Hx. cbn. rewrite forallb_forall in HF. specialize (HF _ (nth_In rest ([], [], [], None) Hd)).
    destruct (nth d rest ([], [], [], None)) as [[[i' o'] e'] c']. apply andb_true_iff in HF. destruct HF as [F1 F2].
    destruct Hx as [Hx|Hx]; [exact (disjb_sound F1 Hx)|exact (disjb_sound F2 Hx)]. }
  constructor; cbn [nt table_cfg length].
  - (* w_nodup *) intros [|t] Ht; [exact (proj1 (Lib.nodupb_NoDup o) Hn)|apply (w_nodup _ IH); simpl; lia].
  - (* w_disj *) intros [|t] [|t'] x Ht Ht' Hne.
    + (* the first row twice *) contradiction.
    + (* the first row, a later one *) intros Hx. apply Later; [lia|left; exact Hx].
    + (* a later row, the first one *) intros Hx Hx'. apply (Later t x); [lia|left; exact Hx'|exact Hx].
    + (* two rows of the rest *) apply (w_disj _ IH); simpl; lia.
  - (* w_topo *) intros [|t] [|d] x Ht Hd Hle.
    + (* the first row reads, the first row writes *) exact (disjb_sound Hio).
    + (* the first row reads, a later one writes *) intros Hx. apply Later; [lia|right; exact Hx].
    + (* a later row before the first: excluded by t <= d *) lia.
    + (* two rows of the rest *) apply (w_topo _ IH); simpl; lia.
  - (* w_len *) intros [|t] xs cs Ht; cbn.
    + destruct (ocont_eqb xs e); [|discriminate]. intros ->. apply Nat.eqb_eq, Hr.
    + apply (w_len _ IH); simpl; lia.
Qed.

(* an accepted task history over a well-formed table is an execution of the task machine; so the state the real run
   was observed in satisfies the conclusion of C01_atomic (and of every other theorem about reachable states) *)
Theorem task_replay_explained rows f0 left0 script s' sched stp :
  rows_ok rows = true ->
  task_replay (table_cfg rows) f0 left0 script = Accepted s' sched stp ->
  reachable (table_cfg rows) f0 left0 s' /\
  forall t x, t < nt (table_cfg rows) -> In x (tout (tk (table_cfg rows) t)) ->
    fin s' x = f0 x \/
    (past_cmd (pcs s' t) = true /\ fin s' x = TInv.lookup x (tout (tk (table_cfg rows) t)) (val s' t) /\ fin s' x <> None).
Proof.
  intros Hok H. apply replay_sound in H. rewrite run_same in H.
  assert (R : reachable (table_cfg rows) f0 left0 s') by (exists sched; exact H).
  split; [exact R|]. intros t x Ht Hx.
  pose proof (table_wfc rows Hok) as WF.
  destruct (TInv.C01_atomic (table_cfg rows) f0 left0 s' (reach_inv WF R) t x Ht Hx) as [E|[E1 [_ [E3 E4]]]]; auto.
Qed.
End RT.

Module RN.
Import NetA Inv Top Ghost NetTop.

Definition net_step (c : cfg) (gc : gcfg) (x : st * gst) (a : act) : option (st * gst) :=
  if negb (Nat.ltb (node_of a) (nn c)) then None else
  match step c (fst x) a with
  | Some s' => Some (s', gstep c gc (fst x) (snd x) a)
  | None => None
  end.

Definition net_replay (c : cfg) (gc : gcfg) (script : list (line (st * gst) act)) : verdict (st * gst) act :=
  replay (st * gst) act (net_step c gc) (init c, ginit) script.

Lemma run_grun c gc l : forall s g s' g',
  Replay.run (st * gst) act (net_step c gc) (s, g) l = Some (s', g') -> grun c gc s g l = Some (s', g') /\ sched_ok c l.
Proof.
  induction l as [|a r IH]; simpl; intros s g s' g' H.
  - inversion H. split; [reflexivity|exact I].
  - unfold net_step in H. simpl in H. destruct (Nat.ltb (node_of a) (nn c)) eqn:L; simpl in H; [|discriminate].
    destruct (step c s a) as [s1|]; [|discriminate].
    destruct (IH _ _ _ _ H) as [G O]. split; [exact G|]. split; [apply Nat.ltb_lt; exact L|exact O].
Qed.

(* an accepted network history over a well-formed configuration is an execution of the network; the state it ends in
   satisfies the counting and the history invariants, in particular: what was sent on every edge is, in order, the
   image of the tasks its source created (C08), and the tasks created are the zip of the in-edge histories (C04) *)
Theorem net_replay_explained c len gc script s' g' sched stp :
  wf c len -> (forall v L, slen c v = Some L -> length (sitems gc v) = L) ->
  net_replay c gc script = Accepted (s', g') sched stp ->
  AllInv c len gc s' g'.
Proof.
  intros WF SL H. apply replay_sound in H. destruct (run_grun c gc sched _ _ _ _ H) as [G O].
  exact (reachable_inv WF O G).
Qed.
End RN.

Module RSI.
Import Slots.
Definition pc_tag (p : pc) : nat * nat :=
  match p with Idle => (0, 0) | WaitLock => (1, 0) | Depositing k => (2, k) | Running => (3, 0) | Releasing k => (4, k) | Finished => (5, 0) end.
Definition task_tag (s : state) (i : nat) : nat * nat :=
  match nth_error (tasks s) i with Some t => pc_tag (st t) | None => (9, 0) end.
Definition tokens_of (s : state) : nat := tokens s.
Definition mutex_of (s : state) : option nat := mutex s.
Definition ntasks (s : state) : nat := length (tasks s).
End RSI.

Module RTI.
Import TaskFS.
Definition a_start := AStart.      Definition a_chktemp := AChkTemp.  Definition a_chkout := AChkOut.
Definition a_mktemp := AMkTemp.    Definition a_write := AWrite.      Definition a_cmdok := ACmdOk.
Definition a_cmdfail := ACmdFail.  Definition a_ensure := AEnsure.    Definition a_rename := ARename.
Definition a_endren := AEndRen.    Definition a_rmtemp := ARmTemp.
Definition pc_tag (p : pc) : nat * list nat :=
  match p with
  | Wait => (0, []) | ChkTemp => (1, []) | ChkOut => (2, []) | MkTemp => (3, []) | Cmd => (4, []) | Ensure => (5, [])
  | Ren todo => (6, todo) | RmTemp => (7, []) | DoneRan => (8, []) | DoneSkip => (9, [])
  end.
Definition task_tag (s : st) (t : nat) : nat * list nat := pc_tag (pcs s t).
Definition fin_of (s : st) (x : nat) : option nat := fin s x.
Definition tmp_of (s : st) (t x : nat) : option nat := tmp s t x.
Definition tdir_of (s : st) (t : nat) : bool := tdir s t.
Definition exited_of (s : st) : bool := exited s.
End RTI.

Module RNI.
Import NetA Ghost.
Definition mk_cfg (n : nat) (es : list (nat * nat)) (sl : nat -> option nat) (cp : nat) (ep : nat -> bool) : cfg :=
  {| nn := n; edges := es; slen := sl; cap := cp; epar := ep |}.
Definition mk_gcfg (si : nat -> list nat) (f : nat -> nat -> list nat -> nat) : gcfg := {| sitems := si; outf := f |}.
Definition a_begin := ABegin.   Definition a_recv := ARecv.   Definition a_endround := AEndRound.
Definition a_hand := AHand.     Definition a_exit := AExit.   Definition a_pop := APop.
Definition a_send := ASend.     Definition a_endsend := AEndSend.   Definition a_fin := AFin.
Definition ct_tag (x : st * gst) (v : nat) : nat * (list nat * bool) :=
  match ct (ns (fst x) v) with
  | CtIdle => (0, ([], false)) | CtRecv todo saw => (1, (todo, saw)) | CtHand => (2, ([], false)) | CtDone => (3, ([], false))
  end.
Definition rn_tag (x : st * gst) (v : nat) : nat * list nat :=
  match rn (ns (fst x) v) with RSel => (0, []) | RSend todo => (1, todo) | RFin => (2, []) end.
Definition counts (x : st * gst) (v : nat) : nat * nat * list bool := (cN (ns (fst x) v), eN (ns (fst x) v), fl (ns (fst x) v)).
Definition edge_of (x : st * gst) (e : nat) : nat * nat * bool := (snt (es (fst x) e), rcv (es (fst x) e), clo (es (fst x) e)).
Definition hist_of (x : st * gst) (e : nat) : list nat := hist (snd x) e.
Definition crt_of (x : st * gst) (v : nat) : list (list nat) := crt (snd x) v.
Definition cur_of (x : st * gst) (v : nat) : list (nat * nat) := cur (snd x) v.
End RNI.

Module RP.
Definition port_replay (c : Port.cfg) (script : list (line Port.st Port.act)) : verdict Port.st Port.act :=
  replay Port.st Port.act (Port.step c) (Port.init c) script.

Lemma run_same c s l : Replay.run Port.st Port.act (Port.step c) s l = Port.run c s l.
Proof. revert s. induction l as [|a r IH]; simpl; intros s; auto. destruct (Port.step c s a); auto. Qed.

(* an accepted port history is an execution of the port machine: per upstream, what was received is a prefix, in order,
   of what that upstream sends; and if the receiver was observed to see the port closed, it has received everything *)
Theorem port_replay_explained c script s' sched stp :
  1 <= Port.cap c -> 1 <= Port.ns c ->
  port_replay c script = Accepted s' sched stp ->
  (forall r, r < Port.ns c -> Port.from r (Port.hist s') = firstn (Port.rcv s' r) (Port.plan c r)) /\
  (Port.seen s' = true -> forall r, r < Port.ns c -> Port.from r (Port.hist s') = Port.plan c r).
Proof.
  intros C N H. apply replay_sound in H. rewrite run_same in H. split.
  - exact (proj1 (Port.merge_is_orderly c C N sched s' H)).
  - intros Hs. exact (Port.complete_when_seen c C N sched s' H Hs).
Qed.
End RP.

Module RPI.
Definition mk_cfg (n : nat) (pl : nat -> list nat) (cp : nat) : Port.cfg := {| Port.ns := n; Port.plan := pl; Port.cap := cp |}.
Definition a_send := Port.PSend.   Definition a_close := Port.PClose.
Definition a_recv := Port.PRecv.   Definition a_seeclosed := Port.PSeeClosed.
Definition hist_of (s : Port.st) : list (nat * nat) := Port.hist s.
Definition counts (s : Port.st) (r : nat) : nat * nat * bool := (Port.sent s r, Port.rcv s r, Port.opn s r).
Definition flags (s : Port.st) : bool * bool := (Port.closed s, Port.seen s).
End RPI.
