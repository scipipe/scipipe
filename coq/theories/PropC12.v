(* C12 -- No data races: concurrent branches never interfere through shared memory.   PARTIAL.
   A data race is a property of the Go memory model and of every access in the library; no executable model exhibits it.
   What is proved: (1) soundness of the lock discipline in a trace semantics with acquire / release / access events;
   (2) on the skeletons regenerated from the current source, every access to the shared audit record (tags map, record
   pointer), to the remote-port maps at close time and to the slot channel's deposit loop happens with the owning mutex held.
   Not covered by any theorem: completeness of the access enumeration (aliasing), channel hand-offs, logging, the runtime. *)
From Coq Require Import List String Bool.
Import ListNotations.
From SP Require Import Skel Gen Expected ExpectedCones Lockset.
From SP Require TagShare.

(* (1) two accesses of different threads that are both made while holding a common mutex are ordered by happens-before
   (program order, release -> later acquire, transitivity) in every valid trace: they do not race *)
Theorem C12_lockset_sound : forall (tr : nat -> ev) (N : nat), valid tr N ->
  forall (i j t1 t2 x : nat) (w1 w2 : bool) (l : nat),
  i < j -> j < N -> tr i = Acc t1 x w1 -> tr j = Acc t2 x w2 -> t1 <> t2 ->
  holder tr i l = Some t1 -> holder tr j l = Some t2 -> hb tr N i j.
Proof. exact Lockset.C12_lockset_sound. Qed.

(* the synchronised accessors of the shared audit record have the shape the discipline argument was made for: in particular
   every snapshot and every Tags() result gets a map of its own, unconditionally *)
Theorem C12_code_conforms :
  skel_eqb skel_FileIP_auditInfoSnapshot exp_FileIP_auditInfoSnapshot
  && skel_eqb skel_FileIP_Tags exp_FileIP_Tags
  && skel_eqb skel_FileIP_AddTag exp_FileIP_AddTag
  && skel_eqb skel_FileIP_AddTags exp_FileIP_AddTags
  && skel_eqb skel_FileIP_AuditInfo exp_FileIP_AuditInfo
  && skel_eqb skel_FileIP_SetAuditInfo exp_FileIP_SetAuditInfo
  && skel_eqb skel_FileIP_WriteAuditLogToFile exp_FileIP_WriteAuditLogToFile
  && skel_eqb skel_Task_writeAuditLogs exp_Task_writeAuditLogs
  && skel_eqb skel_InPort_CloseConnection exp_InPort_CloseConnection
  && skel_eqb skel_InParamPort_CloseConnection exp_InParamPort_CloseConnection
  && skel_eqb skel_Task_drainStreamingInputs exp_Task_drainStreamingInputs
  && skel_eqb skel_Sink_Run exp_Sink_Run = true.
Proof. vm_compute. reflexivity. Qed.

(* no `go func() {...}()` literal anywhere in the two packages mentions a variable of an enclosing for / range header: the
   module says `go 1.13`, so such a variable is one variable for all iterations and the goroutine would read it while the loop
   assigns it (computed by the translator with go/types on every run; the idiom is to pass the value as an argument) *)
Theorem C12_no_goroutine_captures_a_loop_variable : go_captures_loop_var = [].
Proof. vm_compute. reflexivity. Qed.

(* (2) the discipline, computed on the skeletons regenerated in this run *)
Theorem C12_discipline_tags :
  guarded "ip.lock" ".Tags" skel_FileIP_AddTag
  && guarded "ip.lock" ".Tags" skel_FileIP_Tags
  && guarded "ip.lock" ".Tags" skel_FileIP_Tag
  && guarded "ip.lock" ".Tags" skel_FileIP_auditInfoSnapshot
  && guarded "ip.lock" "json.MarshalIndent" skel_FileIP_WriteAuditLogToFile
  && guarded "ip.lock" "ip.auditInfo" skel_FileIP_AuditInfo
  && guarded "ip.lock" "ip.auditInfo" skel_FileIP_SetAuditInfo = true.
Proof. vm_compute. reflexivity. Qed.

(* (2), ports and slots: CloseConnection of either kind of in-port reaches RemotePorts and Chan only under closeLock, and
   InParamPort.AddRemotePort and connectedOutParamPorts reach RemotePorts only under it; collectUpstreamProcs does not mention
   that map; IncConcurrentTasks deposits its slots between Lock and Unlock of concurrentTasksMx *)
Theorem C12_discipline_ports_and_slots :
  guarded "pt.closeLock" "pt.RemotePorts" skel_InPort_CloseConnection
  && guarded "pt.closeLock" "pt.Chan" skel_InPort_CloseConnection
  && guarded "pip.closeLock" "pip.RemotePorts" skel_InParamPort_CloseConnection
  && guarded "pip.closeLock" "pip.Chan" skel_InParamPort_CloseConnection
  (* the feeder goroutine of FromStr / FromInt / FromFloat deletes its entry while the caller still wires and traverses
     the workflow (finding D20): every access to the map goes through the lock, and the upstream traversal of RunTo
     reads it through the locked accessor only *)
  && guarded "pip.closeLock" "pip.RemotePorts" skel_InParamPort_AddRemotePort
  && guarded "pip.closeLock" "pip.RemotePorts" skel_InParamPort_connectedOutParamPorts
  && negb (touches "pip.RemotePorts" (SBlock skel_collectUpstreamProcs))
  && skel_eqb skel_Workflow_IncConcurrentTasks [SLock "wf.concurrentTasksMx"; SFor "i < slots" [SSend "wf.concurrentTasks"]; SUnlock "wf.concurrentTasksMx"] = true.
Proof. vm_compute. reflexivity. Qed.

(* nobody touches the tags map of an IP except through the guarded accessors: the task, the process and the tagging
   component use Tags() (a copy), AddTags / AddTag, and the snapshot *)
Theorem C12_only_accessors :
  let raw s := touches ".Tags[" s || touches "ai.Tags" s || touches "auditInfo.Tags" s in
  negb (raw (SBlock skel_Task_writeAuditLogs))
  && negb (raw (SBlock skel_Process_createTasks))
  && negb (raw (SBlock skel_components_MapToTags_Run))
  && negb (raw (SBlock skel_components_Concatenator_Run))
  && negb (raw (SBlock skel_NewTask)) = true.
Proof. vm_compute. reflexivity. Qed.

(* no function of the library or of the components assigns to a package-level variable, except InitLog, which sets the
   loggers when the workflow object is created, before any goroutine of the run exists: there is no shared memory outside
   the structures whose access discipline is checked above (evaluated on the table regenerated from the source) *)
Theorem C12_no_writes_to_package_variables :
  forallb (fun p => String.eqb (fst p) "InitLog") global_writes = true.
Proof. vm_compute. reflexivity. Qed.

(* the predicate is not vacuous: the pre-repair shape of AddTag (no lock around the map write) is rejected (defect D6) *)
Theorem C12_tags_refuted_before_repair :
  guarded "ip.lock" ".Tags" [SCall "ip.AuditInfo"; SIf "ai.Tags[k] != """" && ai.Tags[k] != v" [SFail] []; SAssign "ai.Tags[k]"] = false.
Proof. vm_compute. reflexivity. Qed.

(* ... and the pre-repair shapes of D20 are rejected: AddRemotePort wrote the map without the lock, the upstream traversal
   ranged over it directly *)
Theorem C12_feeder_refuted_before_repair :
  guarded "pip.closeLock" "pip.RemotePorts" [SIf "pip.RemotePorts[pop.Name()] != nil" [SFail] []; SAssign "pip.RemotePorts[pop.Name()]"] = false
  /\ touches "pip.RemotePorts" (SBlock [SRange "proc.InParamPorts()" [SRange "pip.RemotePorts" [SCall "visit"]]]) = true.
Proof. split; vm_compute; reflexivity. Qed.

(* T1, call cones (DESIGN 11.26, ExpectedCones.v): every function of scipipe reachable from the functions above is one the
   models were compared with. *)
Theorem C12_cone_conforms :
  strs_eqb cone_Task_drainStreamingInputs exp_cone_Task_drainStreamingInputs
  && strs_eqb cone_Sink_Run exp_cone_Sink_Run
  &&   strs_eqb cone_FileIP_auditInfoSnapshot exp_cone_FileIP_auditInfoSnapshot
  && strs_eqb cone_FileIP_Tags exp_cone_FileIP_Tags
  && strs_eqb cone_FileIP_AddTag exp_cone_FileIP_AddTag
  && strs_eqb cone_FileIP_AddTags exp_cone_FileIP_AddTags
  && strs_eqb cone_FileIP_AuditInfo exp_cone_FileIP_AuditInfo
  && strs_eqb cone_FileIP_SetAuditInfo exp_cone_FileIP_SetAuditInfo
  && strs_eqb cone_FileIP_WriteAuditLogToFile exp_cone_FileIP_WriteAuditLogToFile
  && strs_eqb cone_Task_writeAuditLogs exp_cone_Task_writeAuditLogs
  && strs_eqb cone_InPort_CloseConnection exp_cone_InPort_CloseConnection
  && strs_eqb cone_InParamPort_CloseConnection exp_cone_InParamPort_CloseConnection = true.
Proof. vm_compute. reflexivity. Qed.

(* the second sentence of the property ("what one consumer does with an item it received is never observed half-done by a
   sibling consumer of the same out-port") fails for a tagging component that returns two or more tags (finding D24): AddTags
   takes the lock once per tag, and between two of them a sibling reads some of the tags and not the others.  No data race --
   every access is under ip.lock, which is what the discipline theorems above establish -- but a half-done observation *)
Theorem C12_shared_ip_half_done_refuted : forall (tag : Type) (init_tags new_tags : list tag), 2 <= List.length new_tags ->
  exists l s, TagShare.run tag init_tags new_tags true (TagShare.init tag) l = Some s /\ TagShare.complete tag new_tags s /\
              TagShare.view tag s = Some ((init_tags ++ firstn 1 new_tags)%list) /\
              firstn 1 new_tags <> [] /\ firstn 1 new_tags <> new_tags.
Proof. exact TagShare.shared_object_half_done. Qed.

Print Assumptions C12_code_conforms.
Print Assumptions C12_lockset_sound.
Print Assumptions C12_discipline_tags.
Print Assumptions C12_discipline_ports_and_slots.
Print Assumptions C12_only_accessors.
Print Assumptions C12_no_writes_to_package_variables.
Print Assumptions C12_tags_refuted_before_repair.
Print Assumptions C12_feeder_refuted_before_repair.
Print Assumptions C12_cone_conforms.
Print Assumptions C12_shared_ip_half_done_refuted.
Print Assumptions C12_no_goroutine_captures_a_loop_variable.
