(* C14 -- Tasks in flight never share a temp directory; a task's temp directory is stable. *)
From Coq Require Import List Bool.
Import ListNotations.
From Coq Require Import Permutation.
From SP Require Import Skel Gen Expected ExpectedCones Sha1 TempNames TempDirModel TempStable.

(* T1: the constants the model has built in are those of the current source *)
Theorem C14_code_conforms :
  String.eqb const_tempDirPrefix exp_const_tempDirPrefix
  && strs_eqb regexps_sanitizePathFragment exp_regexps_sanitizePathFragment = true.
Proof. vm_compute. reflexivity. Qed.

(* the name is one valid path segment of at most 255 bytes, for every identity *)
Theorem C14_valid_segment : forall i : ident,
  (List.length (task_tempdir i) <= 255)%nat /\ Forall (fun c => allowed c = true) (task_tempdir i).
Proof. intro i. exact (TempNames.C14_valid_segment (iname i) (preimage i)). Qed.

(* distinctness up to SHA-1: two identities with the same directory name have hashed pre-images
   with the same SHA-1 digest -- so either the pre-images are equal or this is a SHA-1 collision *)
Theorem C14_reduction : forall i j : ident,
  task_tempdir i = task_tempdir j ->
  sha1 (to_bytes (hashed (iname i) (preimage i))) = sha1 (to_bytes (hashed (iname j) (preimage j))).
Proof. intros i j. exact (TempNames.C14_reduction (iname i) (preimage i) (iname j) (preimage j)). Qed.

(* stable: the same task identity gets the same directory whatever order Go enumerates its maps in (keys are sorted);
   the name is a function of the identity alone -- no clock, no random source, no map order *)
Theorem C14_stable : forall i j : ident,
  iname i = iname j ->
  NoDup (map fst (iins i)) -> Permutation (iins i) (iins j) ->
  NoDup (map fst (isubs i)) -> Permutation (isubs i) (isubs j) ->
  NoDup (map fst (iparams i)) -> Permutation (iparams i) (iparams j) ->
  NoDup (map fst (itags i)) -> Permutation (itags i) (itags j) ->
  task_tempdir i = task_tempdir j.
Proof. exact TempStable.tempdir_stable. Qed.

(* the pre-image determines a lone parameter value; the name being the same the hashed strings differ with it, so with
   C14_reduction equal directories are a SHA-1 collision *)
Theorem C14_preimage_injective_param : forall (name : str) (ins : list (str * str)) (k v1 v2 : str),
  preimage {| iname := name; iins := ins; isubs := []; iparams := [(k, v1)]; itags := [] |} =
  preimage {| iname := name; iins := ins; isubs := []; iparams := [(k, v2)]; itags := [] |} -> v1 = v2.
Proof. exact (fun name ins => TempStable.preimage_injective_param name ins [] []). Qed.

(* the pre-image determines a lone one-segment input path (a file in the working directory), with the same consequence *)
Theorem C14_preimage_injective_input : forall (name port p1 p2 : str),
  single_segment p1 -> single_segment p2 ->
  preimage {| iname := name; iins := [(port, p1)]; isubs := []; iparams := []; itags := [] |} =
  preimage {| iname := name; iins := [(port, p2)]; isubs := []; iparams := []; itags := [] |} -> p1 = p2.
Proof. exact (fun name port p1 p2 => TempStable.preimage_injective_input name port p1 p2 [] [] []). Qed.

(* the pre-image is not injective: input "a/b" and input "ab" of the same process share a directory (finding D7) *)
Theorem C14_preimage_refuted : iins idA <> iins idB /\ task_tempdir idA = task_tempdir idB.
Proof. exact TempDirModel.C14_preimage_refuted. Qed.

(* T1, call cones (DESIGN 11.26, ExpectedCones.v): every function of scipipe reachable from the functions this property's
   models stand for is one the models were compared with. *)
Theorem C14_cone_conforms :
  strs_eqb cone_Task_TempDir exp_cone_Task_TempDir
  && strs_eqb cone_NewTask exp_cone_NewTask = true.
Proof. vm_compute. reflexivity. Qed.

Print Assumptions C14_code_conforms.
Print Assumptions C14_valid_segment.
Print Assumptions C14_reduction.
Print Assumptions C14_stable.
Print Assumptions C14_preimage_injective_param.
Print Assumptions C14_preimage_injective_input.
Print Assumptions C14_preimage_refuted.
Print Assumptions C14_cone_conforms.
