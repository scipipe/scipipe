(* What the invariant gives for the reachable states of TaskFS: the theorems behind C02 and C09, and the link to C03 (a
   crash state lies between the initial files and the reference result). *)
From Coq Require Import List.
Import ListNotations.
Require Import Lib Result TaskFS TInv TPres Glue.

Section Cor.
Variable c : cfg.
Variable f0 : fs.
Variable left0 : nat -> bool.
Hypothesis WF : wfc c.

Definition reachable (s : st) := exists sched, run c (init c f0 left0) sched = Some s.

Lemma reach_inv {s} : reachable s -> Inv c f0 s.
Proof.
  intros [sched H].
  apply (run_invariant (step c) (run c)) with (l := sched) (s := init c f0 left0);
    [reflexivity|reflexivity|exact (step_inv c f0 WF)|apply init_inv|exact H].
Qed.

(* a task one of whose declared outputs pre-exists never gets past the
   skip check: its temp dir is never made and its command never runs *)
Theorem C02_skip s t x cnt : reachable s -> t < nt c -> In x (tout (tk c t)) -> f0 x = Some cnt ->
  past_chk (pcs s t) = false.
Proof.
  intros R Ht Hx Hf. destruct (past_chk (pcs s t)) eqn:P; auto.
  rewrite (t_abs c f0 s t (proj1 (reach_inv R) t Ht) P x Hx) in Hf. discriminate.
Qed.

Lemma uncommitted_untouched {s t x} : reachable s -> t < nt c -> In x (tout (tk c t)) ->
  ~ committed (pcs s t) x -> fin s x = f0 x.
Proof. intros R Ht Hx. exact (proj2 (t_fin c f0 s t (proj1 (reach_inv R) t Ht) x Hx)). Qed.

(* every pre-existing file at a declared output path keeps its content *)
Theorem C02_untouched s t x cnt : reachable s -> t < nt c -> In x (tout (tk c t)) -> f0 x = Some cnt ->
  fin s x = Some cnt.
Proof.
  intros R Ht Hx Hf. rewrite <- Hf. apply (uncommitted_untouched R Ht Hx). intros C.
  apply committed_past_cmd in C. apply past_cmd_chk in C. rewrite (C02_skip s t x cnt R Ht Hx Hf) in C. discriminate C.
Qed.

(* C09: after a failure nothing moves any more ... *)
Theorem C09_exit_is_final s a : exited s = true -> step c s a = None.
Proof. intros H. unfold step. now rewrite H. Qed.

(* ... and the outputs of the failing task, as of any task whose command has not succeeded, are untouched *)
Theorem C09_failed_outputs_untouched s t x : reachable s -> t < nt c -> In x (tout (tk c t)) ->
  past_cmd (pcs s t) = false -> fin s x = f0 x.
Proof.
  intros R Ht Hx P. apply (uncommitted_untouched R Ht Hx). intros C.
  apply committed_past_cmd in C. congruence.
Qed.

(* a dependant never starts before its producer is done *)
Theorem C09_no_dependants s t d : reachable s -> t < nt c -> d < t ->
  shares (tout (tk c d)) (tin (tk c t)) = true -> pcs s t <> Wait -> is_done (pcs s d) = true.
Proof.
  intros R Ht Hd Hs Hw. exact (t_deps c f0 s t (proj1 (reach_inv R) t Ht) Hw d Hd Hs).
Qed.

(* no task stands between two of its renames: one at Ren has renamed none of its outputs yet, or all of them *)
Definition finalize_atomic (s : st) : Prop :=
  forall t todo, t < nt c -> pcs s t = Ren todo -> todo = [] \/ (forall x, In x (tout (tk c t)) -> In x todo).

Variable fR : fs.
Hypothesis HR : pre c f0 (nt c) = Some fR.

(* C03 link: a crash state with no task between two of its renames lies task-atomically between f0 and fR; the conclusion
   is [between (tl c (nt c)) f0 (fin s) fR] spelled out, with [t < nt c] for "t in the task list"
   (TaskTop.crash_restart_converges folds it back) *)
Theorem crash_between s : reachable s -> finalize_atomic s ->
  (forall x, (forall t, t < nt c -> ~ In x (tout (tk c t))) -> fin s x = f0 x) /\
  (forall t, t < nt c -> agree_on (tout (tk c t)) (fin s) f0 \/ agree_on (tout (tk c t)) (fin s) fR).
Proof.
  intros R FA. pose proof (reach_inv R) as HI. split; [exact (proj2 HI)|].
  intros t Ht. destruct (committed_is_ref c f0 WF fR HR s HI t Ht) as [Hc _].
  assert (Hall : (forall x, In x (tout (tk c t)) -> committed (pcs s t) x) \/
                 (forall x, In x (tout (tk c t)) -> ~ committed (pcs s t) x)).
  { destruct (pcs s t) eqn:P; try (right; tauto); try (left; intros; exact I).
    (* Ren todo: nothing or everything is still to be renamed *)
    destruct (FA t todo Ht P) as [->|Hin]; [left; intros x Hx []|right; intros x Hx Hn; apply Hn; auto]. }
  destruct Hall as [A|A]; [right|left]; intros x Hx.
  - apply Hc; auto.
  - exact (uncommitted_untouched R Ht Hx (A x Hx)).
Qed.

End Cor.
Arguments reach_inv {c f0 left0} WF {s}.
Print Assumptions crash_between.
Print Assumptions C02_untouched.
