(* Deadlock freedom of the process network: in a state that satisfies the counting invariant, some action is possible
   as long as a node has not finished (C05 core). *)
From Coq Require Import List Lia PeanoNat Wf_nat.
Require Import NetA Inv.

Section Dead.
Variable c : cfg.
Variable len : nat -> nat.
Hypothesis WF : wf c len.

(* (eN, v) in lexicographic order: a node that is blocked blames one with a smaller key *)
Definition key (s : st) (v : nat) := eN (ns s v) * S (nn c) + v.

Lemma key_lt s w v : w < nn c ->
  (eN (ns s w) < eN (ns s v) \/ (eN (ns s w) = eN (ns s v) /\ w < v)) -> key s w < key s v.
Proof. unfold key. intros Hw [H|[H1 H2]]; nia. Qed.

Theorem no_deadlock s : Inv c len s ->
  (exists v, v < nn c /\ rn (ns s v) <> RFin) ->
  exists a, node_of a < nn c /\ step c s a <> None.
Proof.
  intros HI [v [Hv Hun]]. revert Hv Hun. induction v as [v IH] using (induction_ltof1 _ (key s)). intros Hv Hun.
  pose proof (proj1 HI v Hv) as NI.
  pose proof (ni_total NI) as Tot. unfold sending in Tot.
  destruct (rn (ns s v)) as [|todo|] eqn:Rn.
  - (* RSel *)
    destruct (fl (ns s v)) as [|[|] rest] eqn:Fl.
    + (* nothing in flight *)
      destruct (ct (ns s v)) as [|todo saw| |] eqn:Ct.
      * (* CtIdle *) exists (ABegin v (fsort c (ins c v))). split; [exact Hv|]. simpl. rewrite Ct.
        destruct (slen c v); [destruct (Nat.ltb _ _); discriminate|].
        rewrite is_perm_fsort by apply nodup_ins. rewrite par_sorted_fsort. discriminate.
      * (* CtRecv *) destruct todo as [|y todo].
        { exists (AEndRound v). split; [exact Hv|]. simpl. rewrite Ct. destruct saw; discriminate. }
        destruct (Nat.ltb (rcv (es s y)) (snt (es s y))) eqn:Hq.
        { exists (ARecv v). split; [exact Hv|]. simpl. rewrite Ct, Hq. discriminate. }
        destruct (clo (es s y)) eqn:Hc.
        { exists (ARecv v). split; [exact Hv|]. simpl. rewrite Ct, Hq, Hc. discriminate. }
        (* blocked receiving on the empty open edge y: blame its source u, which has emitted no more than v
           (eN u <= snt y <= rcv y = cN v = eN v) and comes before v *)
        apply Nat.ltb_ge in Hq.
        destruct (recv_head WF HI Hv Ct) as [Hy R]. destruct (inv_in HI Hy) as (HyE & Hyd & EI).
        pose proof (src_node WF HyE) as Hu. destruct (wf_topo _ _ WF y HyE) as [Hlt _].
        assert (Hunu : rn (ns s (esrc c y)) <> RFin) by (intros F; apply (ei_clo EI) in F; congruence).
        pose proof (ei_snt EI) as Sn. simpl in Tot.
        apply (IH (esrc c y)); auto. apply key_lt; auto. lia.
      * (* CtHand *) exists (AHand v). split; [exact Hv|]. simpl. rewrite Ct, Rn. discriminate.
      * (* CtDone *) exists (AFin v). split; [exact Hv|]. simpl. rewrite Rn, Ct, Fl. discriminate.
    + (* the oldest task in flight is done *)
      exists (APop v (outs c v)). split; [exact Hv|]. simpl. rewrite Rn, Fl.
      rewrite is_perm_refl by apply nodup_outs. discriminate.
    + (* it is still executing *)
      exists (AExit v 0). split; [exact Hv|]. simpl. rewrite Fl. discriminate.
  - (* RSend *)
    destruct todo as [|x todo].
    { exists (AEndSend v). split; [exact Hv|]. simpl. rewrite Rn. discriminate. }
    destruct (Nat.ltb (snt (es s x) - rcv (es s x)) (cap c)) eqn:Hq.
    { exists (ASend v). split; [exact Hv|]. simpl. rewrite Rn, Hq. discriminate. }
    (* blocked on the full edge x: blame its destination w, which has not finished (it would have taken the whole
       stream) and has emitted less than v (eN w <= cN w <= rcv x < snt x = eN v) *)
    apply Nat.ltb_ge in Hq. pose proof (wf_cap _ _ WF) as Hcap.
    destruct (ni_stodo NI _ Rn) as (_ & Hsub). assert (Hx : In x (outs c v)) by (apply Hsub; left; reflexivity).
    destruct (inv_out HI Hx) as (HxE & Hxs & EI).
    destruct (wf_topo _ _ WF x HxE) as [_ Hw]. pose proof (proj1 HI _ Hw) as NW.
    pose proof (ei_snt EI) as S. rewrite (sx_head Rn) in S. pose proof (ei_rcv EI) as R.
    assert (Hunw : rn (ns s (edst c x)) <> RFin).
    { intros F. destruct (ni_fin NW F) as (D & _ & _). pose proof (ni_done NW D).
      pose proof (snt_le_len WF HI HxE). rewrite (wf_bal _ _ WF x HxE) in *. lia. }
    pose proof (ni_total NW) as TotW.
    apply (IH (edst c x)); auto. apply key_lt; auto. lia.
  - (* RFin *) congruence.
Qed.

End Dead.
Print Assumptions no_deadlock.
