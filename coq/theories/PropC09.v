(* C09 -- A failing task stops the workflow; failure is never silent.  Model: TaskFS (see PropC01). *)
From Coq Require Import List Bool.
From SP Require Import Skel Gen Expected ExpectedCones Result TaskFS TInv Cor.
From SP Require FailWindow.

(* T1: Fail is os.Exit(1); a failing command, a missing output and a failing rename (T1 only; not a transition of the model)
   all reach Fail; no recover anywhere *)
Theorem C09_code_conforms :
  skel_eqb skel_Fail exp_Fail && skel_eqb skel_Failf exp_Failf && skel_eqb skel_CheckWithMsg exp_CheckWithMsg
  && skel_eqb skel_Task_Execute exp_Task_Execute
  && skel_eqb skel_Task_executeCommand exp_Task_executeCommand
  && skel_eqb skel_Task_ensureAllOutputsExist exp_Task_ensureAllOutputsExist
  && skel_eqb skel_FinalizePaths exp_FinalizePaths
  && skel_eqb skel_NewTask exp_NewTask
  && skel_eqb skel_NewFileIP exp_NewFileIP = true.
Proof. vm_compute. reflexivity. Qed.

(* a failing command, or a declared output missing after exit 0, moves the whole system to `exited` ... *)
Theorem C09_fail_is_exit : forall (c : cfg) (s : st) (t : nat),
  exited s = false -> t < nt c ->
  (pcs s t = Cmd -> exists s', step c s (ACmdFail t) = Some s' /\ exited s' = true) /\
  (pcs s t = Ensure -> forallb (fun x => isSome (tmp s t x)) (tout (tk c t)) = false ->
   forall perm, exists s', step c s (AEnsure t perm) = Some s' /\ exited s' = true).
Proof.
  intros c s t He Ht. apply PeanoNat.Nat.ltb_lt in Ht. unfold step. simpl. rewrite He, Ht. split.
  - intros P. exists (fail s). rewrite P. split; reflexivity.
  - intros P M perm. exists (fail s). rewrite P, M. split; reflexivity.
Qed.

(* ... from which no step exists: nothing runs after a failure, completion is never reached *)
Theorem C09_exit_is_final : forall (c : cfg) (s : st) (a : act), exited s = true -> step c s a = None.
Proof. exact Cor.C09_exit_is_final. Qed.

(* the failing task's outputs keep their initial value in every reachable state *)
Theorem C09_failed_outputs_untouched : forall (c : cfg) (f0 : fs) (left0 : nat -> bool), wfc c ->
  forall s t x, reachable c f0 left0 s -> t < nt c -> In x (tout (tk c t)) -> past_cmd (pcs s t) = false -> fin s x = f0 x.
Proof. exact Cor.C09_failed_outputs_untouched. Qed.

(* no task that reads an output of task d leaves Wait before d is done: dependants of a failed task never execute *)
Theorem C09_no_dependants : forall (c : cfg) (f0 : fs) (left0 : nat -> bool), wfc c ->
  forall s t d, reachable c f0 left0 s -> t < nt c -> d < t ->
  shares (tout (tk c d)) (tin (tk c t)) = true -> pcs s t <> Wait -> is_done (pcs s d) = true.
Proof. exact Cor.C09_no_dependants. Qed.

(* between the failure and os.Exit (the report is written in between, the other tasks go on -- FailWindow): no task that
   reads an output of the failed task leaves Wait, for as long as the program lives ... *)
Theorem C09_window_no_dependants : forall (c : cfg) (f0 : fs) (left0 : nat -> bool), wfc c ->
  forall w, FailWindow.wreachable c f0 left0 w ->
  forall t d, t < nt c -> d < t -> FailWindow.failed w d = true ->
  shares (tout (tk c d)) (tin (tk c t)) = true -> pcs (FailWindow.base w) t = Wait.
Proof. intros c f0 left0 WF w R. exact (FailWindow.window_no_dependants c f0 left0 WF w R). Qed.

(* ... and once it is gone nothing moves *)
Theorem C09_window_gone_is_final : forall (c : cfg) (w : FailWindow.wst) (a : FailWindow.wact),
  FailWindow.gone w = true -> FailWindow.wstep c w a = None.
Proof. exact FailWindow.window_gone_is_final. Qed.

(* a failed task takes no further step: its goroutine is inside Fail until the program ends *)
Theorem C09_window_failed_is_stopped : forall (c : cfg) (w : FailWindow.wst) (a : act),
  FailWindow.failed w (node_of a) = true -> FailWindow.wstep c w (FailWindow.WTask a) = None.
Proof. intros c w a F. unfold FailWindow.wstep. rewrite F. destruct (FailWindow.gone w); reflexivity. Qed.

(* T1, call cones (DESIGN 11.26, ExpectedCones.v): every function of scipipe reachable from the functions above is one the
   models were compared with. *)
Theorem C09_cone_conforms :
  strs_eqb cone_Fail exp_cone_Fail
  && strs_eqb cone_Failf exp_cone_Failf
  && strs_eqb cone_CheckWithMsg exp_cone_CheckWithMsg
  && strs_eqb cone_Task_Execute exp_cone_Task_Execute
  && strs_eqb cone_Task_executeCommand exp_cone_Task_executeCommand
  && strs_eqb cone_Task_ensureAllOutputsExist exp_cone_Task_ensureAllOutputsExist
  && strs_eqb cone_FinalizePaths exp_cone_FinalizePaths
  && strs_eqb cone_NewTask exp_cone_NewTask
  && strs_eqb cone_NewFileIP exp_cone_NewFileIP = true.
Proof. vm_compute. reflexivity. Qed.

Print Assumptions C09_code_conforms.
Print Assumptions C09_fail_is_exit.
Print Assumptions C09_exit_is_final.
Print Assumptions C09_failed_outputs_untouched.
Print Assumptions C09_no_dependants.
Print Assumptions C09_window_no_dependants.
Print Assumptions C09_window_gone_is_final.
Print Assumptions C09_window_failed_is_stopped.
Print Assumptions C09_cone_conforms.
