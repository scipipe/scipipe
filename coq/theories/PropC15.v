(* C15 -- Placeholders and path modifiers expand as documented. *)
From Coq Require Import List String Bool.
Import ListNotations.
From SP Require Import Skel Gen Expected ExpectedCones Str PathLex Format FormatParse FormatCommand.
From SP Require WfModel FormatPaths.
From Coq Require Import Permutation.

(* T1: the regular expressions the model implements by hand (three lists: placeholder, path modifiers, port discovery) and
   the two place-holder constants are those in the source *)
Theorem C15_code_conforms :
  strs_eqb regexps_getShellCommandPlaceHolderRegex exp_regexps_getShellCommandPlaceHolderRegex
  && strs_eqb regexps_applyPathModifiers exp_regexps_applyPathModifiers
  && strs_eqb regexps_Process_initPortsFromCmdPattern exp_regexps_Process_initPortsFromCmdPattern
  && String.eqb const_parentDirPlaceHolder exp_const_parentDirPlaceHolder
  && String.eqb const_FSRootPlaceHolder exp_const_FSRootPlaceHolder = true.
Proof. vm_compute. reflexivity. Qed.

(* the scanner finds exactly the placeholders of a rendered pattern, in order, for every pattern
   made of brace-free text and placeholders of the six kinds with a non-empty brace-free body *)
Theorem C15_parse_render : forall ps : list FormatParse.piece,
  Forall FormatParse.piece_ok ps -> find_all (FormatParse.flat ps) 0 = phs ps.
Proof. exact FormatParse.C15_parse_render. Qed.

(* one global strings.Replace of a placeholder acts piece-wise: every occurrence is replaced, nothing else changes *)
Theorem C15_replace_pieces : forall (ob new : str) (ps : list Str.piece),
  brace_free ob -> Forall Str.piece_ok ps ->
  replace_all (ph ob) new (Str.flat ps) = Str.flat (map (subst1 ob new) ps).
Proof. exact Str.replace_all_pieces. Qed.

(* for every pattern made of brace-free literals and placeholders of the six kinds (any number of occurrences of the same
   placeholder), if every placeholder has a value (`replacement` = Ok) and the values are brace free -- which holds for all
   paths and parameter values over the valid alphabet -- then the iterated global strings.Replace of formatCommand yields
   exactly the concatenation of the literals and the values, in order *)
Theorem C15_command : forall (e : env) (ps : list FormatParse.piece) (val : str -> str -> str),
  Forall piece_ok2 ps ->
  (forall k rest, In (FormatParse.PhK k rest) ps ->
     replacement (port_infos (FormatParse.flat ps)) e k rest = Ok (val k rest) /\ brace_free (val k rest)) ->
  format_command (FormatParse.flat ps) e =
  Ok (List.concat (map (fun p => match p with FormatParse.Txt u => u | FormatParse.PhK k rest => val k rest end) ps)).
Proof. exact FormatCommand.format_command_spec. Qed.

(* the modifiers as documented: basename / dirname / %suffix, applied left to right *)
Theorem C15_modifiers_documented :
  (forall p, apply_mod p (s2l "basename") = after_last_slash p)
  /\ (forall p, apply_mod p (s2l "dirname") = before_last_slash p)
  /\ (forall p suf, find_subst (pct :: suf) = None ->
        apply_mod p (pct :: suf) = if Nat.ltb (length suf) (length p) && is_suffix suf p then firstn (length p - length suf) p else p)
  /\ (forall p m ms, apply_mods p (m :: ms) = apply_mods (apply_mod p m) ms).
Proof.
  split; [exact FormatCommand.apply_mod_basename|]. split; [exact FormatCommand.apply_mod_dirname|].
  split; [exact FormatCommand.apply_mod_suffix|exact FormatCommand.apply_mods_cons].
Qed.

(* Format.v evaluates all thirteen *)
Definition vectors : list (string * string) :=
  [("echo {i:foo}", "echo ../data/foofile.txt");
   ("echo {i:foo} {i:bar}", "echo ../data/foofile.txt ../barfile.txt");
   ("cat {i:foo} > {o:baz|%.txt}", "cat ../data/foofile.txt > data/outfile");
   ("cat {i:foo} > {o:baz|%.txt|basename}", "cat ../data/foofile.txt > outfile");
   ("cat {i:foo|s/foo/bar/} > {o:baz|%.txt}", "cat ../data/barfile.txt > data/outfile");
   ("cat {i:foo|dirname}/newfile.txt {i:foo} > {o:baz}", "cat ../data/newfile.txt ../data/foofile.txt > data/outfile.txt");
   ("cat ../{i:foo|basename} {i:foo} > {o:baz}", "cat ../foofile.txt ../data/foofile.txt > data/outfile.txt");
   ("cat {i:foo} > {o:bax}", "cat ../data/foofile.txt > __parent____parent__ref/ref.txt");
   ("cat {i:foo} > {o:bay}", "cat ../data/foofile.txt > __fsroot__/tmp/scipipe/bay_outfile.txt")]%string.
(* the model reproduces nine of the thirteen vectors of TestFormatCommand (a finite table, not the unbounded claim) *)
Theorem C15_test_vectors :
  forallb (fun v => match format_command (s2l (fst v)) env0 with Ok r => String.eqb (l2s r) (snd v) | Fail => false end) vectors = true.
Proof. vm_compute. reflexivity. Qed.

(* a missing value stops the workflow instead of producing a command: if the replacement of ANY placeholder the scanner
   finds in the pattern fails, formatCommand fails -- wherever the placeholder stands, whatever the others are ... *)
Theorem C15_missing_fails : forall (cmd : str) (e : env) (whole kind rest : str),
  In (whole, kind, rest) (find_all cmd 0) -> replacement (port_infos cmd) e kind rest = Fail -> format_command cmd e = Fail.
Proof. exact FormatCommand.missing_value_fails. Qed.

(* ... and the replacement fails for an absent or empty parameter, an absent or empty tag, an absent in-path, and for a
   name that port discovery does not know *)
Theorem C15_missing_cases :
  (forall infos e name mods pi, lookup name infos = Some pi -> ptype pi = s2l "p" ->
     (lookup name (e_par e) = None \/ lookup name (e_par e) = Some []) ->
     hd [] (split_on pipe (name ++ mods)%list) = name -> replacement infos e (s2l "p") (name ++ mods)%list = Fail)
  /\ (forall infos e name mods pi, lookup name infos = Some pi -> ptype pi = s2l "t" ->
     (lookup name (e_tag e) = None \/ lookup name (e_tag e) = Some []) ->
     hd [] (split_on pipe (name ++ mods)%list) = name -> replacement infos e (s2l "t") (name ++ mods)%list = Fail)
  /\ (forall infos e name mods pi, lookup name infos = Some pi -> ptype pi = s2l "i" -> pjoin pi = None ->
     (lookup name (e_in e) = None \/ lookup name (e_in e) = Some []) ->
     hd [] (split_on pipe (name ++ mods)%list) = name -> replacement infos e (s2l "i") (name ++ mods)%list = Fail)
  /\ (forall infos e kind rest, lookup (hd [] (split_on pipe rest)) infos = None -> replacement infos e kind rest = Fail).
Proof.
  split; [exact FormatCommand.replacement_param_missing|]. split; [exact FormatCommand.replacement_tag_missing|].
  split; [exact FormatCommand.replacement_in_missing|exact FormatCommand.replacement_unknown].
Qed.

(* output-path patterns (SetOut): a placeholder without a value makes the expansion fail *)
Theorem C15_setout_missing_fails : forall (pat : str) (ins pars tags : list (str * str)) (whole kind rest : str),
  In (whole, kind, rest) (find_all pat 0) -> FormatPaths.value_of ins pars tags kind rest = None ->
  WfModel.expand pat ins pars tags = Fail.
Proof. exact FormatPaths.setout_missing_fails. Qed.

(* the default output name is a deterministic function of input names, process name, parameters, tags, port name and
   extension: it does not depend on the order in which the maps are enumerated *)
Theorem C15_default_path_deterministic : forall (pname pattern port : str) (ins ins' pars pars' tags tags' : list (str * str)),
  NoDup (map fst ins) -> NoDup (map fst pars) -> NoDup (map fst tags) ->
  Permutation ins ins' -> Permutation pars pars' -> Permutation tags tags' ->
  WfModel.default_path pname pattern port ins pars tags = WfModel.default_path pname pattern port ins' pars' tags'.
Proof. exact FormatPaths.default_path_order_independent. Qed.

(* a missing value never yields a command: absent in-path, absent or empty parameter, absent or empty tag *)
Theorem C15_missing_fails_examples :
  format_command (s2l "echo {p:x}") {| e_in := []; e_sub := []; e_out := []; e_par := [(s2l "x", [])]; e_tag := [] |} = Fail
  /\ format_command (s2l "echo {p:x}") {| e_in := []; e_sub := []; e_out := []; e_par := []; e_tag := [] |} = Fail
  /\ format_command (s2l "echo {t:x}") {| e_in := []; e_sub := []; e_out := []; e_par := []; e_tag := [(s2l "x", [])] |} = Fail
  /\ format_command (s2l "echo {i:x}") {| e_in := []; e_sub := []; e_out := []; e_par := []; e_tag := [] |} = Fail.
Proof. vm_compute. repeat split. Qed.

(* T1, call cones (DESIGN 11.26, ExpectedCones.v): every function of scipipe reachable from the functions this property's
   models stand for is one the models were compared with. *)
Theorem C15_cone_conforms :
  strs_eqb cone_NewTask exp_cone_NewTask
  && strs_eqb cone_Task_formatCommand exp_cone_Task_formatCommand
  && strs_eqb cone_applyPathModifiers exp_cone_applyPathModifiers
  && strs_eqb cone_Process_initPortsFromCmdPattern exp_cone_Process_initPortsFromCmdPattern
  && strs_eqb cone_Process_initDefaultPathFuncs exp_cone_Process_initDefaultPathFuncs = true.
Proof. vm_compute. reflexivity. Qed.

Print Assumptions C15_code_conforms.
Print Assumptions C15_parse_render.
Print Assumptions C15_replace_pieces.
Print Assumptions C15_command.
Print Assumptions C15_modifiers_documented.
Print Assumptions C15_test_vectors.
Print Assumptions C15_missing_fails.
Print Assumptions C15_missing_cases.
Print Assumptions C15_setout_missing_fails.
Print Assumptions C15_default_path_deterministic.
Print Assumptions C15_missing_fails_examples.
Print Assumptions C15_cone_conforms.
