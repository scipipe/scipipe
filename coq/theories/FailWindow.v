(* The window between a failure and the end of the program.

   TaskFS lets a failure end the program in the same step (`fail s` sets `exited`, after which no step exists).  The code
   does not: `Fail` first writes the report -- which contains everything the command printed, through a logger whose writer
   may be slow or blocked -- and calls os.Exit only then; meanwhile every other task goes on, finalizes its outputs, or
   fails too and waits for the logger.  This file gives the refined system: a failing task is marked `failed` and never
   takes another step (Fail does not return), every other task keeps stepping, and the program ends at some later WExit. *)
From Coq Require Import List PeanoNat.
Import ListNotations.
Require Import Result TaskFS TInv Cor.

(* [gone]: os.Exit has happened *)
Record wst := { base : st; failed : nat -> bool; gone : bool }.

Inductive wact :=
| WTask (a : act)        (* a step of a task's goroutine *)
| WExit.                 (* os.Exit(1) at the end of the first Fail that gets there *)

Definition any_failed (c : cfg) (w : wst) : bool := existsb (failed w) (seq 0 (nt c)).

Definition winit (c : cfg) (f0 : fs) (left0 : nat -> bool) : wst :=
  {| base := init c f0 left0; failed := fun _ => false; gone := false |}.

(* the second component is the TaskFS action the step amounts to, if any; a failing step is recorded in [failed], not
   applied, so [base] never exits *)
Definition wstep (c : cfg) (w : wst) (a : wact) : option (wst * option act) :=
  if gone w then None else
  match a with
  | WExit => if any_failed c w then Some ({| base := base w; failed := failed w; gone := true |}, None) else None
  | WTask a =>
    if failed w (node_of a) then None else
    match step c (base w) a with
    | None => None
    | Some s' =>
      if exited s'
      then Some ({| base := base w; failed := upd (failed w) (node_of a) true; gone := false |}, None)
      else Some ({| base := s'; failed := failed w; gone := false |}, Some a)
    end
  end.

Fixpoint wrun (c : cfg) (w : wst) (l : list wact) : option (wst * list act) :=
  match l with
  | [] => Some (w, [])
  | a :: r =>
    match wstep c w a with
    | None => None
    | Some (w', oa) =>
      match wrun c w' r with
      | None => None
      | Some (w'', tr) => Some (w'', match oa with Some b => b :: tr | None => tr end)
      end
    end
  end.

(* the pcs at which [step] can set [exited] (Step_exit_phase).  Go can also Fail in createDirs (task.go:275-278) and when
   finalizePaths returns an error (task.go:301-304); TaskFS has no failing step at MkTemp or Ren: the first would commit
   nothing, the second is left out. *)
Definition failing_phase (p : pc) : bool := match p with ChkTemp | Cmd | Ensure => true | _ => false end.

Section Window.
Variable c : cfg.

Lemma Step_exit_phase s p a s' : Step c s p a s' -> exited s = false -> exited s' = true -> failing_phase p = true.
Proof. intros H E0 E. destruct H; simpl in *; (reflexivity || congruence). Qed.

(* the TaskFS state has not exited (a failing step is never applied), and a task marked failed stands at a failing phase:
   it is not done and has renamed nothing (failing_phase_spec) *)
Definition WInv (w : wst) : Prop :=
  exited (base w) = false /\ forall t, failed w t = true -> failing_phase (pcs (base w) t) = true.

Lemma wstep_inv w a w' oa : WInv w -> wstep c w a = Some (w', oa) ->
  WInv w' /\ match oa with Some b => step c (base w) b = Some (base w') | None => base w' = base w end.
Proof.
  intros [E F]. unfold wstep. destruct (gone w); [discriminate|]. destruct a as [a|].
  - destruct (failed w (node_of a)) eqn:Fa; [discriminate|].
    destruct (step c (base w) a) as [s'|] eqn:S; [|discriminate].
    destruct (step_Step _ _ _ _ S) as (_ & St).
    destruct (exited s') eqn:X; intros H; injection H as <- <-.
    + refine (conj (conj E _) eq_refl).
      intros t. simpl. unfold upd. destruct (Nat.eqb_spec t (node_of a)) as [->|N]; auto.
      intros _. exact (Step_exit_phase _ _ _ _ St E X).
    + refine (conj (conj X _) S).
      intros t Ft. simpl in *. assert (N : t <> node_of a) by congruence.
      rewrite (proj1 (Step_others St t N)). auto.
  - destruct (any_failed c w); [|discriminate]. intros H; injection H as <- <-. split; [split; auto|reflexivity].
Qed.

(* whatever the refined system does, its file store, temp areas and program counters are those of a TaskFS run made of the
   non-failing steps, in the same order -- so every invariant of TaskFS (C01, C02, C09) holds throughout the window, and a
   failed task is still at the phase in which it failed *)
Theorem window_simulated l : forall w w' tr, WInv w -> wrun c w l = Some (w', tr) ->
  WInv w' /\ run c (base w) tr = Some (base w').
Proof.
  induction l as [|a r IH]; simpl; intros w w' tr I H.
  - injection H as <- <-. split; [exact I|reflexivity].
  - destruct (wstep c w a) as [[w1 oa]|] eqn:S; [|discriminate].
    destruct (wrun c w1 r) as [[w2 tr2]|] eqn:R; [|discriminate]. injection H as <- <-.
    destruct (wstep_inv _ _ _ _ I S) as [I1 R1]. destruct (IH _ _ _ I1 R) as [I2 R2]. split; [exact I2|].
    destruct oa as [b|]; simpl; [rewrite R1|rewrite <- R1]; exact R2.
Qed.

Variable f0 : fs.
Variable left0 : nat -> bool.
Hypothesis WF : wfc c.

Definition wreachable (w : wst) := exists l tr, wrun c (winit c f0 left0) l = Some (w, tr).

Lemma winit_inv : WInv (winit c f0 left0).
Proof. split; [reflexivity|]. intros t H. discriminate. Qed.

Lemma window_reach w : wreachable w -> WInv w /\ reachable c f0 left0 (base w).
Proof.
  intros [l [tr H]]. destruct (window_simulated l _ _ _ winit_inv H) as [I R]. split; [exact I|exists tr; exact R].
Qed.

Lemma failing_phase_spec p : failing_phase p = true -> (forall x, ~ committed p x) /\ is_done p = false.
Proof. destruct p; intros H; try discriminate H; split; auto. Qed.

(* C01 throughout the window *)
Theorem window_atomic w : wreachable w -> forall t x, t < nt c -> In x (tout (tk c t)) ->
  fin (base w) x = f0 x \/
  (past_cmd (pcs (base w) t) = true /\ sem (tk c t) (map (fin (base w)) (tin (tk c t))) = Some (val (base w) t) /\
   fin (base w) x = TInv.lookup x (tout (tk c t)) (val (base w) t) /\ fin (base w) x <> None).
Proof.
  intros R. exact (TInv.C01_atomic c f0 left0 (base w) (reach_inv WF (proj2 (window_reach w R)))).
Qed.

(* the outputs of a task that failed hold what they held before the run, however long the program lives on and whatever
   the other tasks do meanwhile *)
Theorem window_failed_leaves_nothing w : wreachable w -> forall t x, t < nt c -> failed w t = true ->
  In x (tout (tk c t)) -> fin (base w) x = f0 x.
Proof.
  intros R t x Ht Ft Hx. destruct (window_reach w R) as [[_ FP] RB].
  exact (uncommitted_untouched c f0 left0 WF RB Ht Hx (proj1 (failing_phase_spec _ (FP t Ft)) x)).
Qed.

(* no task that reads an output of a failed task ever starts *)
Theorem window_no_dependants w : wreachable w -> forall t d, t < nt c -> d < t -> failed w d = true ->
  shares (tout (tk c d)) (tin (tk c t)) = true -> pcs (base w) t = Wait.
Proof.
  intros R t d Ht Hd Fd Sh. destruct (window_reach w R) as [[_ FP] RB].
  destruct (wait_dec (pcs (base w) t)) as [E|NW]; [exact E|exfalso].
  pose proof (proj2 (failing_phase_spec _ (FP d Fd))) as D.
  rewrite (C09_no_dependants c f0 left0 WF _ t d RB Ht Hd Sh NW) in D. discriminate.
Qed.

Theorem window_gone_is_final w a : gone w = true -> wstep c w a = None.
Proof. intros G. unfold wstep. rewrite G. reflexivity. Qed.

End Window.

(* the window is real: two tasks, the first fails, the second completes before the program ends *)
Definition w_cfg : cfg :=
  {| nt := 2; tk := fun t => if Nat.eqb t 0 then {| tin := []; tout := [0]; sem := fun _ => None |}
                              else {| tin := []; tout := [1]; sem := fun _ => Some [5] |} |}.

Definition w_sched : list wact :=
  [WTask (AStart 0); WTask (AChkTemp 0); WTask (AChkOut 0); WTask (AMkTemp 0);
   WTask (AStart 1); WTask (AChkTemp 1); WTask (AChkOut 1); WTask (AMkTemp 1);
   WTask (AWrite 0 0 9); WTask (ACmdFail 0);                                  (* task 0 fails; its report is being written *)
   WTask (ACmdOk 1 []); WTask (AEnsure 1 [1]); WTask (ARename 1); WTask (AEndRen 1); WTask (ARmTemp 1);
   WExit].

Theorem window_example :
  exists w tr, wrun w_cfg (winit w_cfg (fun _ => None) (fun _ => false)) w_sched = Some (w, tr)
    /\ gone w = true /\ failed w 0 = true /\ fin (base w) 0 = None /\ fin (base w) 1 = Some 5 /\ pcs (base w) 1 = DoneRan.
Proof. eexists. eexists. split; [vm_compute; reflexivity|]. vm_compute. repeat split. Qed.

(* what the theorems rely on is that a task that called Fail takes no further step.  The same system, except that a
   failure reported while another one is already being reported returns to its caller, which carries on as if the
   command had succeeded with whatever it left in its temp area: *)
Definition returning_step (c : cfg) (w : wst) (a : wact) : option wst :=
  match a with
  | WTask (ACmdFail t) =>
    if gone w then None else
    if failed w t then None else
    match pcs (base w) t with
    | Cmd =>
      if any_failed c w
      then Some {| base := set_pc (base w) t Ensure; failed := failed w; gone := false |}     (* Fail returned *)
      else Some {| base := base w; failed := upd (failed w) t true; gone := false |}
    | _ => None
    end
  | _ => match wstep c w a with Some (w', _) => Some w' | None => None end
  end.

Fixpoint returning_run (c : cfg) (w : wst) (l : list wact) : option wst :=
  match l with
  | [] => Some w
  | a :: r => match returning_step c w a with Some w' => returning_run c w' r | None => None end
  end.

Definition r_cfg : cfg :=
  {| nt := 2; tk := fun t => if Nat.eqb t 0 then {| tin := []; tout := [0]; sem := fun _ => None |}
                              else {| tin := []; tout := [1]; sem := fun _ => None |} |}.

Definition r_sched : list wact :=
  [WTask (AStart 0); WTask (AChkTemp 0); WTask (AChkOut 0); WTask (AMkTemp 0);
   WTask (AStart 1); WTask (AChkTemp 1); WTask (AChkOut 1); WTask (AMkTemp 1);
   WTask (ACmdFail 0);                                                          (* first failure: being reported *)
   WTask (AWrite 1 1 77); WTask (ACmdFail 1);                                   (* second command wrote part of its output, exits 1 *)
   WTask (AEnsure 1 [1]); WTask (ARename 1); WTask (AEndRen 1); WTask (ARmTemp 1);
   WExit].

(* both commands fail (sem = None: no successful execution exists), yet a file is at the final path of the second *)
Theorem returning_fail_refuted :
  exists w, returning_run r_cfg (winit r_cfg (fun _ => None) (fun _ => false)) r_sched = Some w
    /\ gone w = true /\ sem (tk r_cfg 1) [] = None /\ fin (base w) 1 = Some 77.
Proof. eexists. split; [vm_compute; reflexivity|]. repeat split. Qed.
