(* The bundled components (C19) that are not in Comb.v: selector, splitter and concatenator on byte strings (the splitter through Splitter.v). *)
From Coq Require Import List.
Import ListNotations.
From SP Require Import Splitter.

(* IPSelectorSync: rows are the aligned tuples (one item per port); a row is forwarded iff all members satisfy the predicate *)
Definition selector {A} (pred : A -> bool) (rows : list (list A)) : list (list A) := filter (forallb pred) rows.

Lemma selector_spec {A} (pred : A -> bool) rows r :
  In r (selector pred rows) <-> In r rows /\ forall x, In x r -> pred x = true.
Proof. unfold selector. rewrite filter_In, forallb_forall. tauto. Qed.

Lemma selector_order {A} (pred : A -> bool) rows1 rows2 :
  selector pred (rows1 ++ rows2) = selector pred rows1 ++ selector pred rows2.
Proof. unfold selector. apply filter_app. Qed.

(* Concatenator: every input's content, in arrival order, each followed by a newline *)
Definition concat_out (contents : list (list nat)) : list nat := concat (map (fun c => c ++ [LF]) contents).

Lemma concat_out_app a b : concat_out (a ++ b) = concat_out a ++ concat_out b.
Proof. unfold concat_out. now rewrite map_app, concat_app. Qed.

(* FileSplitter: the parts as byte strings *)
Definition split_bytes (n : nat) (s : list nat) : list (list nat) := map render (split n (lines_of s)).

(* FileToParamsReader / CommandToParams: one parameter per line (Readers.v) *)
Definition reader_lines (s : list nat) : list (list nat) := lines_of s.
