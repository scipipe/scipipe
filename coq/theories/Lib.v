(* What the transition systems share: induction along a schedule, guards of step functions, sums of a function
   over an initial segment of nat, and a few facts about lists that the standard library lacks. *)
From Coq Require Import List Lia Bool PeanoNat.
Import ListNotations.

(* Every model has its own [run] over its own [step]; each satisfies the two equations below by computation, which is
   all the lemmas use. *)
Section Sched.
Context {S A : Type} (step : S -> A -> option S) (run : S -> list A -> option S).
Hypothesis run_nil : forall s, run s [] = Some s.
Hypothesis run_cons : forall s a l, run s (a :: l) = match step s a with Some s' => run s' l | None => None end.

Lemma run_invariant (P : S -> Prop) : (forall s a s', P s -> step s a = Some s' -> P s') ->
  forall l s s', P s -> run s l = Some s' -> P s'.
Proof.
  intros HP. induction l as [|a l IH]; intros s s' I H.
  - rewrite run_nil in H. injection H as <-. exact I.
  - rewrite run_cons in H. destruct (step s a) as [s1|] eqn:E; [|discriminate]. exact (IH s1 s' (HP s a s1 I E) H).
Qed.

Lemma run_app l1 l2 s : run s (l1 ++ l2) = match run s l1 with Some s1 => run s1 l2 | None => None end.
Proof.
  revert s. induction l1 as [|a l1 IH]; intros s; simpl.
  - now rewrite run_nil.
  - rewrite !run_cons. destruct (step s a); auto.
Qed.
End Sched.

(* for a step function of the form [if guards then Some next else None]: when it succeeds, and that it then returns [next] *)
Lemma guarded {A} (b : bool) (P : Prop) (x : A) : (b = true <-> P) -> ((if b then Some x else None) <> None <-> P).
Proof. intros <-. destruct b; split; congruence. Qed.

Lemma guarded_some {A} (b : bool) (x y : A) : (if b then Some x else None) = Some y -> y = x.
Proof. destruct b; congruence. Qed.

Lemma negb_iff b P : (b = false <-> P) -> (negb b = true <-> P).
Proof. intros <-. apply negb_true_iff. Qed.

Lemma andb_iff b1 b2 P1 P2 : (b1 = true <-> P1) -> (b2 = true <-> P2) -> (b1 && b2 = true <-> P1 /\ P2).
Proof. intros <- <-. apply andb_true_iff. Qed.

Fixpoint sumto (f : nat -> nat) (n : nat) : nat := match n with O => 0 | S k => f k + sumto f k end.

Lemma sumto_ext f g n : (forall r, r < n -> f r = g r) -> sumto f n = sumto g n.
Proof. induction n as [|n IH]; simpl; intros H; auto. rewrite H by lia. rewrite IH; auto. Qed.

Lemma sumto_upd f g {n r} : r < n -> (forall x, x <> r -> f x = g x) -> sumto f n + g r = sumto g n + f r.
Proof.
  induction n as [|n IH]; intros Hr H; [lia|]. simpl. destruct (Nat.eq_dec r n) as [->|Hne].
  - rewrite (sumto_ext f g n) by (intros x Hx; apply H; lia). lia.
  - rewrite (H n) by lia. specialize (IH ltac:(lia) H). lia.
Qed.

Section Eqb.
Context {A : Type} {eqb : A -> A -> bool}.
Hypothesis eqb_eq : forall x y, eqb x y = true <-> x = y.

Lemma existsb_In_eqb x l : existsb (eqb x) l = true <-> In x l.
Proof.
  rewrite existsb_exists. split.
  - intros [y [Hy E]]. apply eqb_eq in E. now subst.
  - intros H. exists x. split; [exact H|now apply eqb_eq].
Qed.

Lemma existsb_notIn_eqb x l : existsb (eqb x) l = false <-> ~ In x l.
Proof. rewrite <- existsb_In_eqb. destruct (existsb (eqb x) l); intuition congruence. Qed.
End Eqb.

Lemma existsb_eqb_In x l : existsb (Nat.eqb x) l = true <-> In x l.
Proof. apply existsb_In_eqb, Nat.eqb_eq. Qed.

Lemma existsb_eqb_false x l : existsb (Nat.eqb x) l = false <-> ~ In x l.
Proof. apply existsb_notIn_eqb, Nat.eqb_eq. Qed.

Lemma in_remove_iff x a l : In x (remove Nat.eq_dec a l) <-> In x l /\ x <> a.
Proof. split; [apply in_remove|intros [H1 H2]; now apply in_in_remove]. Qed.

Lemma NoDup_remove_eq a l : NoDup l -> NoDup (remove Nat.eq_dec a l).
Proof.
  induction l as [|b l IH]; simpl; intros ND; [constructor|]. apply NoDup_cons_iff in ND. destruct ND as [Hnin ND].
  destruct (Nat.eq_dec a b); auto. constructor; auto. rewrite in_remove_iff. tauto.
Qed.

(* The executable duplicate test of FanIn.v and ReplayInst.v (each has its own copy, convertible with this one) *)
Fixpoint nodupb (l : list nat) : bool :=
  match l with [] => true | a :: r => negb (existsb (Nat.eqb a) r) && nodupb r end.

Lemma nodupb_NoDup l : nodupb l = true <-> NoDup l.
Proof.
  induction l as [|a r IH]; simpl; [split; [constructor|reflexivity]|].
  rewrite andb_true_iff, negb_true_iff, existsb_eqb_false, IH, NoDup_cons_iff. reflexivity.
Qed.

(* The executable permutation test of NetA.v and TaskFS.v: each has its own copy, convertible with this one. *)
Fixpoint is_perm (l1 l2 : list nat) : bool :=
  match l1 with
  | [] => match l2 with [] => true | _ => false end
  | a :: r => existsb (Nat.eqb a) l2 && is_perm r (remove Nat.eq_dec a l2)
  end.

Lemma is_perm_in {l1 l2} : is_perm l1 l2 = true -> NoDup l2 -> (forall x, In x l1 <-> In x l2) /\ NoDup l1.
Proof.
  revert l2. induction l1 as [|a r IH]; intros l2 H ND.
  - destruct l2; [|discriminate]. split; [tauto|constructor].
  - apply andb_true_iff in H. destruct H as [Ha Hr]. apply existsb_eqb_In in Ha.
    destruct (IH _ Hr (NoDup_remove_eq a l2 ND)) as [Hin NDr]. split.
    + intros x. simpl. rewrite Hin, in_remove_iff. split.
      * intros [<-|[Hx _]]; auto.
      * intros Hx. destruct (Nat.eq_dec a x); auto.
    + constructor; auto. rewrite Hin, in_remove_iff. tauto.
Qed.

Lemma is_perm_complete l1 : forall l2, NoDup l1 -> (forall x, In x l1 <-> In x l2) -> is_perm l1 l2 = true.
Proof.
  induction l1 as [|a r IH]; intros l2 N1 H.
  - destruct l2 as [|b l2]; auto. exfalso. apply (proj2 (H b)). left; reflexivity.
  - apply NoDup_cons_iff in N1. destruct N1 as [Hnin N1]. apply andb_true_iff. split.
    + apply existsb_eqb_In. apply H. left; reflexivity.
    + apply IH; auto.
      intros x. rewrite in_remove_iff. split.
      * intros Hx. split; [apply H; right; exact Hx|]. intros ->. exact (Hnin Hx).
      * intros [Hx Hne]. apply H in Hx. destruct Hx as [->|Hx]; [congruence|exact Hx].
Qed.

Lemma NoDup_app {A} (l1 l2 : list A) : NoDup l1 -> NoDup l2 -> (forall x, In x l1 -> ~ In x l2) -> NoDup (l1 ++ l2).
Proof.
  induction l1 as [|a m IH]; simpl; intros N1 N2 D; auto.
  apply NoDup_cons_iff in N1. destruct N1 as [Hnin N1]. constructor; [|apply IH; auto].
  rewrite in_app_iff. intros [H|H]; [exact (Hnin H)|]. exact (D a (or_introl eq_refl) H).
Qed.

Lemma Forall_nth_error {A} (P : A -> Prop) l i x : Forall P l -> nth_error l i = Some x -> P x.
Proof. intros F H. rewrite Forall_forall in F. apply F. eapply nth_error_In; eauto. Qed.
