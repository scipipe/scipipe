(* History correspondence engine (tie T3-replay): an observed event log of the real library is turned (by the harness)
   into a script over the actions of one of the transition systems; the engine below decides, using nothing but the
   system's own [step], whether the system has an execution that explains the log, and returns that execution.

   A script line is
     Do a        -- an event whose position in the log is a valid linearisation point: [a] must be enabled now;
     Begin i a   -- a blocking operation (channel send / receive) was started: [a] happens somewhere before [End i];
     End i       -- the operation has returned: [a] must have happened by now;
     Chk t p     -- an observation about the state ([p] must hold now; [t] only labels the line in error reports).
   Pending operations are fired as early as the system allows (after every state change, oldest first).  This is
   complete (not proved) for operations that do not compete with one another (one sender and one receiver per channel),
   which is how the harness uses it; it is sound for every script: see [replay_sound]. *)
From Coq Require Import List.
Import ListNotations.

Section Replay.
Variables (St A : Type).
Variable step : St -> A -> option St.

Inductive line :=
| Do (a : A)
| Begin (id : nat) (a : A)
| End (id : nat)
| Chk (tag : nat) (p : St -> bool).

Fixpoint run (s : St) (l : list A) : option St :=
  match l with
  | [] => Some s
  | a :: r => match step s a with Some s' => run s' r | None => None end
  end.

(* fire the oldest enabled pending operation *)
Fixpoint fire (s : St) (pend : list (nat * A)) : option (St * A * list (nat * A)) :=
  match pend with
  | [] => None
  | (i, a) :: r =>
    match step s a with
    | Some s' => Some (s', a, r)
    | None => match fire s r with
              | Some (s', b, r') => Some (s', b, (i, a) :: r')
              | None => None
              end
    end
  end.

(* ... until none is enabled; [acc] is the schedule so far, newest first *)
Fixpoint flush (fuel : nat) (s : St) (pend : list (nat * A)) (acc : list A) : St * list (nat * A) * list A :=
  match fuel with
  | 0 => (s, pend, acc)
  | S f => match fire s pend with
           | Some (s', a, p') => flush f s' p' (a :: acc)
           | None => (s, pend, acc)
           end
  end.

Definition is_pending (id : nat) (pend : list (nat * A)) : bool := existsb (fun x => Nat.eqb (fst x) id) pend.

Inductive verdict :=
| Accepted (s : St) (sched : list A) (still_pending : list nat)
| Rejected (lineno : nat) (why : nat) (s : St).   (* why: 0 = Do not enabled, 1 = operation not linearisable before its End, 2 = Chk failed *)

(* [flush] gets the number of pending operations as fuel (at Begin the new one included): every [fire] removes one, so
   after that many none is left to fire *)
Fixpoint replay_from (n : nat) (s : St) (pend : list (nat * A)) (acc : list A) (script : list line) : verdict :=
  match script with
  | [] => Accepted s (rev acc) (map fst pend)
  | Do a :: r =>
    match step s a with
    | Some s' => let '(s2, p2, acc2) := flush (length pend) s' pend (a :: acc) in replay_from (S n) s2 p2 acc2 r
    | None => Rejected n 0 s
    end
  | Begin i a :: r =>
    let '(s2, p2, acc2) := flush (S (length pend)) s (pend ++ [(i, a)]) acc in replay_from (S n) s2 p2 acc2 r
  | End i :: r =>
    if is_pending i pend then Rejected n 1 s else replay_from (S n) s pend acc r
  | Chk t p :: r =>
    if p s then replay_from (S n) s pend acc r else Rejected n 2 s
  end.

Definition replay (s0 : St) (script : list line) : verdict := replay_from 0 s0 [] [] script.

Lemma run_app {s l1 l2 s1} : run s l1 = Some s1 -> run s (l1 ++ l2) = run s1 l2.
Proof.
  revert s. induction l1 as [|a l1 IH]; simpl; intros s H.
  - now inversion H.
  - destruct (step s a); [auto|discriminate].
Qed.

Lemma fire_step s pend s' a p' : fire s pend = Some (s', a, p') -> step s a = Some s'.
Proof.
  revert s' a p'. induction pend as [|[i b] r IH]; simpl; intros s' a p' H; [discriminate|].
  destruct (step s b) as [s1|] eqn:E.
  - inversion H; subst. exact E.
  - destruct (fire s r) as [[[s2 c] r2]|]; [|discriminate]. inversion H; subst. eapply IH; reflexivity.
Qed.

Lemma flush_sound fuel : forall s0 s pend acc s' p' acc',
  run s0 (rev acc) = Some s -> flush fuel s pend acc = (s', p', acc') -> run s0 (rev acc') = Some s'.
Proof.
  induction fuel as [|f IH]; simpl; intros s0 s pend acc s' p' acc' H E.
  - inversion E; subst; exact H.
  - destruct (fire s pend) as [[[s1 a] p1]|] eqn:F.
    + eapply IH; [|exact E]. simpl. rewrite (run_app H). simpl. now rewrite (fire_step _ _ _ _ _ F).
    + inversion E; subst; exact H.
Qed.

Lemma replay_from_sound script : forall s0 n s pend acc s' sched stp,
  run s0 (rev acc) = Some s -> replay_from n s pend acc script = Accepted s' sched stp -> run s0 sched = Some s'.
Proof.
  induction script as [|ln r IH]; cbn [replay_from]; intros s0 n s pend acc s' sched stp H E.
  - inversion E; subst; exact H.
  - destruct ln as [a|i a|i|t p].
    + destruct (step s a) as [s1|] eqn:Ea; [|discriminate].
      destruct (flush (length pend) s1 pend (a :: acc)) as [[s2 p2] acc2] eqn:F.
      eapply IH; [|exact E]. eapply flush_sound; [|exact F]. simpl. rewrite (run_app H). simpl. now rewrite Ea.
    + destruct (flush (S (length pend)) s (pend ++ [(i, a)]) acc) as [[s2 p2] acc2] eqn:F.
      eapply IH; [|exact E]. eapply flush_sound; [exact H|exact F].
    + destruct (is_pending i pend); [discriminate|]. eapply IH; eauto.
    + destruct (p s); [|discriminate]. eapply IH; eauto.
Qed.

Theorem replay_sound s0 script s' sched stp :
  replay s0 script = Accepted s' sched stp -> run s0 sched = Some s'.
Proof. intros E. eapply replay_from_sound; [|exact E]. reflexivity. Qed.

End Replay.

Arguments Do {St A} a.
Arguments Begin {St A} id a.
Arguments End {St A} id.
Arguments Chk {St A} tag p.
Arguments Accepted {St A} s sched still_pending.
Arguments Rejected {St A} lineno why s.
