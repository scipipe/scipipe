(* The slot machine from its initial state: C06 and C07 for every capacity, list of core counts and schedule.  (The
   product NetSlots.v appends tasks as they are handed over, so its slot states are not reached from [init]: there the
   invariants are carried, not these theorems.) *)
From Coq Require Import List Lia.
From SP Require Import Lib Slots Slots7.

Definition init (cap0 : nat) (cs : list nat) : state :=
  {| cap := cap0; tokens := 0; mutex := None; tasks := map (fun c => {| cores := c; st := Idle |}) cs |}.

Lemma init_inv cap0 cs : Inv (init cap0 cs).
Proof. split; simpl; [lia|]. induction cs; auto. Qed.

Lemma nth_init cs i t : nth_error (map (fun c => {| cores := c; st := Idle |}) cs) i = Some t -> st t = Idle /\ In (cores t) cs.
Proof.
  intros H. apply nth_error_In, in_map_iff in H. destruct H as (c & <- & Hc). auto.
Qed.

Lemma init_minv cap0 cs : MInv (init cap0 cs).
Proof.
  split; [|split; [discriminate|]].
  - intros i t H D. apply nth_init in H. destruct H as [H _]. unfold is_dep in D. rewrite H in D. discriminate.
  - intros i t k H E. apply nth_init in H. destruct H as [H _]. congruence.
Qed.

Lemma step_cap {s i s'} : step s i = Some s' -> cap s' = cap s.
Proof. intros H. apply step_iff in H. destruct H as (t & q & tk & m & _ & _ & ->). reflexivity. Qed.

Lemma step_len {s i s'} : step s i = Some s' -> length (tasks s') = length (tasks s).
Proof. intros H. apply step_iff in H. destruct H as (t & q & tk & m & _ & _ & ->). apply upd_length. Qed.

(* what Process.Run checks before it creates a task (process.go: CoresPerTask > cap(p.workflow.concurrentTasks) fails) *)
Definition CInv (s : state) : Prop := forall i t, nth_error (tasks s) i = Some t -> cores t <= cap s.

Lemma step_cinv s i s' : CInv s -> step s i = Some s' -> CInv s'.
Proof.
  intros HC H. apply step_iff in H. destruct H as (t & q & tk & m & Hn & _ & ->). intros j u Hu.
  destruct (nth_upd_inv Hn Hu) as [[-> ->]|[_ Hu']]; [apply (HC i t Hn)|apply (HC j u Hu')].
Qed.

Record AllInv (s : state) : Prop := { ai_inv : Inv s; ai_minv : MInv s; ai_cinv : CInv s }.

Lemma step_all s i s' : AllInv s -> step s i = Some s' -> AllInv s'.
Proof. intros [I1 I2 I3] H. constructor; eauto using step_inv, step_minv, step_cinv. Qed.

Lemma run_all sched s s' : AllInv s -> run s sched = Some s' -> AllInv s'.
Proof. apply (run_invariant step run); [reflexivity|reflexivity|exact step_all]. Qed.

Lemma init_all cap0 cs : (forall c, In c cs -> c <= cap0) -> AllInv (init cap0 cs).
Proof.
  intros H. constructor; [apply init_inv|apply init_minv|].
  intros i t Ht. apply nth_init in Ht. destruct Ht as [_ Hin]. auto.
Qed.

Lemma run_cap sched s s' : run s sched = Some s' -> cap s' = cap s.
Proof.
  apply (run_invariant step run) with (P := fun x => cap x = cap s); [reflexivity|reflexivity| |reflexivity].
  intros x i x' E H. rewrite (step_cap H). exact E.
Qed.

(* C06 (Slots.C06_slots_never_exceeded) from the initial state: the bound is the capacity the run began with (run_cap) *)
Theorem never_exceeded cap0 cs sched s' :
  run (init cap0 cs) sched = Some s' -> tsum executing (tasks s') <= cap0.
Proof.
  intros H. pose proof (C06_slots_never_exceeded (init cap0 cs) sched s' (init_inv cap0 cs) H) as L.
  rewrite (run_cap sched _ _ H) in L. exact L.
Qed.

Theorem progress cap0 cs sched s' :
  (forall c, In c cs -> c <= cap0) ->
  run (init cap0 cs) sched = Some s' ->
  (exists i t, nth_error (tasks s') i = Some t /\ st t <> Finished) ->
  exists i, step s' i <> None.
Proof.
  intros Hc H Hun. destruct (run_all sched _ _ (init_all cap0 cs Hc) H) as [I1 I2 I3].
  apply C07_progress; auto.
Qed.

Lemma tsum_want_init cs : tsum want (map (fun c => {| cores := c; st := Idle |}) cs) = fold_right Nat.add 0 cs.
Proof. induction cs as [|c r IH]; simpl; auto. rewrite want_of, IH. reflexivity. Qed.

(* C07 work conservation (Slots7.work_conserving_from), from the initial state *)
Theorem work_conserving cap0 cs sched s' :
  fold_right Nat.add 0 cs <= cap0 ->
  run_acq (init cap0 cs) sched = Some s' ->
  (forall i, acq s' i = true -> step s' i = None) ->
  forall i t, nth_error (tasks s') i = Some t -> contender t = false.
Proof.
  intros Hfit H Hmax. apply (work_conserving_from (init cap0 cs) sched s'); auto using run_acq_run.
  - apply init_minv.
  - unfold Fits, init; simpl. rewrite tsum_want_init. lia.
Qed.
