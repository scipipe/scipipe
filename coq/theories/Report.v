(* The listing of audit2html / audit2tex / audit2bash: flatten the record tree by ID, then order by start time (C20). *)
From Coq Require Import List Lia Bool PeanoNat Permutation Sorted.
Import ListNotations.

(* an audit record; [payload] stands for process, command, params, tags ... *)
Inductive rec := Rec (id : nat) (start : nat) (payload : nat) (up : list rec).

Definition rid (r : rec) := match r with Rec i _ _ _ => i end.
Definition rstart (r : rec) := match r with Rec _ s _ _ => s end.
Definition rup (r : rec) := match r with Rec _ _ _ u => u end.

(* association map keyed by nat, later insertions overwrite (Go map assignment) *)
Definition amap := list (nat * rec).
Fixpoint aset (k : nat) (v : rec) (m : amap) : amap :=
  match m with
  | [] => [(k, v)]
  | (k', v') :: r => if Nat.eqb k k' then (k, v) :: r else (k', v') :: aset k v r
  end.
Fixpoint aget (k : nat) (m : amap) : option rec :=
  match m with [] => None | (k', v') :: r => if Nat.eqb k k' then Some v' else aget k r end.
Definition amerge (a b : amap) : amap := fold_left (fun m kv => aset (fst kv) (snd kv) m) b a.

(* extractAuditInfosByID *)
Fixpoint extract (r : rec) : amap :=
  match r with
  | Rec i s p up => fold_left (fun m u => amerge m (extract u)) up [(i, Rec i s p up)]
  end.

Fixpoint ids (r : rec) : list nat :=
  match r with Rec i _ _ up => i :: flat_map ids up end.

Definition keys (m : amap) := map fst m.

Lemma aset_keys k v m x : In x (keys (aset k v m)) <-> k = x \/ In x (keys m).
Proof.
  induction m as [|[k' v'] r IH]; simpl; [reflexivity|].
  destruct (Nat.eqb_spec k k') as [<-|_]; simpl.
  - clear. tauto.
  - rewrite IH. clear. tauto.
Qed.

Lemma aset_nodup k v m : NoDup (keys m) -> NoDup (keys (aset k v m)).
Proof.
  induction m as [|[k' v'] r IH]; simpl; intros ND.
  - constructor; [intros []|constructor].
  - inversion ND. destruct (Nat.eqb_spec k k'); simpl.
    + subst. constructor; auto.
    + constructor; auto. rewrite aset_keys. intros [E|E]; [congruence|auto].
Qed.

Lemma amerge_keys b : forall a x, In x (keys (amerge a b)) <-> In x (keys a) \/ In x (keys b).
Proof.
  unfold amerge. induction b as [|[k v] r IH]; intros a x; simpl.
  - tauto.
  - rewrite IH, aset_keys. clear. tauto.
Qed.

Lemma amerge_nodup b : forall a, NoDup (keys a) -> NoDup (keys (amerge a b)).
Proof.
  unfold amerge. induction b as [|[k v] r IH]; intros a ND; auto.
  apply IH. apply aset_nodup. exact ND.
Qed.

Section RecInd.
Variable P : rec -> Prop.
Hypothesis H : forall i s p up, Forall P up -> P (Rec i s p up).
Fixpoint rec_ind' (r : rec) : P r :=
  match r with
  | Rec i s p up => H i s p up ((fix go (l : list rec) : Forall P l :=
      match l with [] => Forall_nil _ | x :: xs => Forall_cons _ (rec_ind' x) (go xs) end) up)
  end.
End RecInd.

Lemma extract_flat i s p up : extract (Rec i s p up) = amerge [(i, Rec i s p up)] (flat_map extract up).
Proof.
  cbn [extract]. generalize [(i, Rec i s p up)].
  induction up as [|u up IH]; intros m; [reflexivity|].
  cbn [fold_left flat_map]. rewrite IH. unfold amerge. now rewrite fold_left_app.
Qed.

Theorem extract_ids r : forall x, In x (keys (extract r)) <-> In x (ids r).
Proof.
  induction r as [i s p up IH] using rec_ind'. intros x.
  rewrite extract_flat, amerge_keys. cbn [keys map fst ids In].
  assert (E : In x (keys (flat_map extract up)) <-> In x (flat_map ids up)).
  { induction IH as [|u up Hu _ IHup]; [reflexivity|].
    cbn [flat_map]. unfold keys. rewrite map_app, !in_app_iff, Hu, IHup. reflexivity. }
  rewrite E. clear. tauto.
Qed.

Theorem extract_nodup r : NoDup (keys (extract r)).
Proof. destruct r as [i s p up]. rewrite extract_flat. apply amerge_nodup. repeat constructor. intros []. Qed.

(* sortAuditInfosByStartTime before the repair: a listing through a map keyed by start time, which loses a record on ties
   (finding D10) *)
Fixpoint insert (x : nat) (l : list nat) : list nat :=
  match l with [] => [x] | y :: r => if Nat.leb x y then x :: y :: r else y :: insert x r end.
Definition sort (l : list nat) : list nat := fold_right insert [] l.

Definition by_time (rs : list rec) : amap := fold_left (fun m r => aset (rstart r) r m) rs [].
Definition listing (rs : list rec) : list (option rec) :=
  map (fun t => aget t (by_time rs)) (sort (map rstart rs)).

(* that code loses a record and lists another twice when start times tie *)
Example C20_ties_refuted :
  let a := Rec 1 5 100 [] in let b := Rec 2 5 200 [] in
  listing [a; b] = [Some b; Some b].
Proof. reflexivity. Qed.

(* the repaired ordering: sort the records themselves, by start time, ties by ID *)
Definition rleb (a b : rec) : bool :=
  Nat.ltb (rstart a) (rstart b) || (Nat.eqb (rstart a) (rstart b) && Nat.leb (rid a) (rid b)).
Definition rle (a b : rec) : Prop := rstart a < rstart b \/ (rstart a = rstart b /\ rid a <= rid b).

Lemma rleb_spec a b : rleb a b = true <-> rle a b.
Proof.
  unfold rleb, rle. rewrite orb_true_iff, andb_true_iff, Nat.ltb_lt, Nat.eqb_eq, Nat.leb_le. tauto.
Qed.
Lemma rleb_total a b : rleb a b = false -> rle b a.
Proof. intros H. assert (N : ~ rle a b) by (rewrite <- rleb_spec; congruence). unfold rle in *. lia. Qed.
Lemma rle_trans a b c : rle a b -> rle b c -> rle a c.
Proof. unfold rle. lia. Qed.

Fixpoint rinsert (x : rec) (l : list rec) : list rec :=
  match l with [] => [x] | y :: r => if rleb x y then x :: y :: r else y :: rinsert x r end.
Definition rsort (l : list rec) : list rec := fold_right rinsert [] l.

Lemma rinsert_perm x l : Permutation (x :: l) (rinsert x l).
Proof.
  induction l as [|y r IH]; simpl; auto.
  destruct (rleb x y); auto.
  eapply perm_trans; [apply perm_swap|]. constructor. exact IH.
Qed.

Theorem rsort_perm l : Permutation l (rsort l).
Proof.
  induction l as [|x l IH]; auto.
  eapply perm_trans; [|apply rinsert_perm]. constructor. exact IH.
Qed.

Lemma rinsert_sorted x l : Sorted rle l -> Sorted rle (rinsert x l).
Proof.
  induction 1 as [|y r S IH Hd]; simpl; [repeat constructor|].
  destruct (rleb x y) eqn:L.
  - (* x <= y: x is the new head *)
    constructor; [constructor; assumption|]. constructor. apply rleb_spec, L.
  - (* y <= x: y stays the head *)
    apply rleb_total in L. constructor; [exact IH|].
    (* the head of [rinsert x r] is x or the head of r *)
    destruct Hd as [|z r' Hz]; simpl.
    + (* r is empty *) constructor; auto.
    + destruct (rleb x z); constructor; auto.
Qed.

Theorem rsort_sorted l : Sorted rle (rsort l).
Proof. induction l; [constructor|apply rinsert_sorted; auto]. Qed.

Definition report (r : rec) : list rec := rsort (map snd (extract r)).

Definition keyed (m : amap) : Prop := Forall (fun kv => rid (snd kv) = fst kv) m.

Lemma aset_keyed k v m : rid v = k -> keyed m -> keyed (aset k v m).
Proof.
  intros Hv. induction 1 as [|[k' v'] r Hx K IH]; simpl; [repeat constructor; exact Hv|].
  destruct (Nat.eqb k k'); constructor; auto.
Qed.

Lemma amerge_keyed b : keyed b -> forall a, keyed a -> keyed (amerge a b).
Proof.
  unfold amerge. induction 1 as [|[k v] r Hx _ IH]; intros a Ka; [exact Ka|].
  apply IH, aset_keyed; auto.
Qed.

Lemma extract_keyed r : keyed (extract r).
Proof.
  induction r as [i s p up IH] using rec_ind'. rewrite extract_flat. apply amerge_keyed.
  - (* the upstream records *) apply Forall_flat_map. exact IH.
  - (* the record itself *) repeat constructor.
Qed.

Lemma extract_rids r : map rid (map snd (extract r)) = keys (extract r).
Proof. rewrite map_map. apply map_ext_Forall, extract_keyed. Qed.

(* C20: the report lists exactly the IDs of the lineage, each exactly once, ordered by start time (ties by ID) *)
Theorem report_ids r : forall x, In x (map rid (report r)) <-> In x (ids r).
Proof. intros x. unfold report. rewrite <- rsort_perm, extract_rids. apply extract_ids. Qed.

Theorem report_nodup r : NoDup (map rid (report r)).
Proof. unfold report. rewrite <- rsort_perm, extract_rids. apply extract_nodup. Qed.

Theorem report_sorted r : Sorted rle (report r).
Proof. unfold report. apply rsort_sorted. Qed.

Print Assumptions report_ids.
Print Assumptions report_nodup.
Print Assumptions report_sorted.
