(* C20, second sentence: the script audit2bash generates re-creates the file.
   The script lists, in report order, one guarded command per task of the lineage:
       if any of the task's outputs exists: skip; else: run the command (with "../" stripped, i.e. in the directory itself).
   That is Result.run_task for each listed task, in order -- Result.result of the sub-list of lineage tasks. *)
From Coq Require Import List PeanoNat.
Import ListNotations.
From SP Require Import Result.

(* the tasks the script lists *)
Fixpoint sub (ts : list task) (ks : list bool) : list task :=
  match ts, ks with
  | t :: r, true :: kr => t :: sub r kr
  | _ :: r, false :: kr => sub r kr
  | _, _ => []
  end.

Lemma wf_nth_disj l : wf l -> forall a b ta tb, a < b -> nth_error l a = Some ta -> nth_error l b = Some tb ->
  forall y, In y (tout ta) -> ~ In y (tout tb).
Proof.
  induction l as [|h l IH]; intros W a b ta tb Hab Ha Hb y Hy; [destruct a; discriminate|].
  destruct W as [D [_ [_ W]]]. destruct b as [|b]; [inversion Hab|]. destruct a as [|a]; simpl in Ha, Hb.
  - injection Ha as <-. exact (D tb (nth_error_In _ _ Hb) y Hy).
  - apply (IH W a b ta tb); auto. apply Nat.succ_lt_mono, Hab.
Qed.

Lemma run_task_agree t (f g f' : fs) :
  agree_on (tin t) f g -> agree_on (tout t) f g -> run_task t f = Some f' ->
  exists g', run_task t g = Some g' /\ forall x, f x = g x -> f' x = g' x.
Proof.
  intros Hi Ho. unfold run_task. rewrite <- (any_exists_agree Ho), <- (map_ext_in _ _ _ Hi).
  destruct (any_exists f (tout t)); [intros E; injection E as <-; eauto|].
  destruct (sem t (map f (tin t))) as [cs|]; [|discriminate]. intros E; injection E as <-.
  eexists. split; [reflexivity|]. intros x. apply write_all_agree.
Qed.

(* [L]: a set of locations that holds whatever a marked task reads or writes and nothing an unmarked task writes *)
Lemma result_sub_agree (L : nat -> Prop) ts : forall ks f g fR,
  length ks = length ts ->
  (forall i t, nth_error ts i = Some t -> nth i ks false = true -> forall x, In x (tin t) \/ In x (tout t) -> L x) ->
  (forall i t, nth_error ts i = Some t -> nth i ks false = false -> forall x, In x (tout t) -> ~ L x) ->
  (forall x, L x -> f x = g x) ->
  result ts f = Some fR ->
  exists gS, result (sub ts ks) g = Some gS /\ forall x, L x -> fR x = gS x.
Proof.
  induction ts as [|t r IH]; intros ks f g fR LEN RW WR AG RES.
  - injection RES as <-. exists g. split; [destruct ks as [|[|] ?]; reflexivity|exact AG].
  - destruct ks as [|b kr]; [discriminate LEN|]. injection LEN as LEN.
    simpl in RES. destruct (run_task t f) as [f'|] eqn:E; [|discriminate].
    specialize (IH kr f'). destruct b.
    + (* marked: the script runs it, on the same files *)
      destruct (run_task_agree t f g f') as [g' [E' A]]; auto.
      * intros x Hx. apply AG, (RW 0 t eq_refl eq_refl x). left; exact Hx.
      * intros x Hx. apply AG, (RW 0 t eq_refl eq_refl x). right; exact Hx.
      * simpl. rewrite E'. apply (IH g' fR LEN (fun i => RW (S i)) (fun i => WR (S i))); auto.
    + (* not marked: the script does not run it; what it writes is outside L *)
      apply (IH g fR LEN (fun i => RW (S i)) (fun i => WR (S i))); auto.
      intros x HL. rewrite (run_task_frame E); [apply AG; exact HL|].
      intros Hi. exact (WR 0 t eq_refl eq_refl x Hi HL).
Qed.

Section Closed.
Variable all : list task.
Variable keep : list bool.
Hypothesis LEN : length keep = length all.

(* x is written by a listed task *)
Definition kept_out (x : nat) : Prop := exists i t, nth_error all i = Some t /\ nth i keep false = true /\ In x (tout t).
Definition source (x : nat) : Prop := forall t, In t all -> ~ In x (tout t).
Definition inL (x : nat) : Prop := source x \/ kept_out x.

(* the lineage is closed under "is an input of" *)
Definition closed : Prop :=
  forall i t, nth_error all i = Some t -> nth i keep false = true -> forall x, In x (tin t) -> inL x.

Definition agreeL (f g : fs) : Prop := forall x, inL x -> f x = g x.

Lemma script_agrees f0 fR : closed -> wf all -> result all f0 = Some fR ->
  exists fS, result (sub all keep) f0 = Some fS /\ agreeL fR fS.
Proof.
  intros CL WF RES. apply (result_sub_agree inL all keep f0 f0 fR LEN); auto.
  - intros i t Hi Ki x [Hx|Hx]; [exact (CL i t Hi Ki x Hx)|right; exists i, t; auto].
  - (* an unlisted task writes nothing of the lineage: not a source, and the listed tasks' outputs are disjoint from its own *)
    intros i t Hi Ki x Hx [Hs|[j [t' [Hj [Kj Hx']]]]]; [exact (Hs t (nth_error_In _ _ Hi) Hx)|].
    destruct (Nat.lt_total i j) as [Lt|[->|Lt]]; [|congruence|].
    + exact (wf_nth_disj all WF i j t t' Lt Hi Hj x Hx Hx').
    + exact (wf_nth_disj all WF j i t' t Lt Hj Hi x Hx' Hx).
Qed.

(* the script, run in a directory that holds only the source files, succeeds and gives every output of a listed task the
   content the complete run gives it; that no output exists at the start is not used (both runs skip the same listed tasks) *)
Theorem script_reproduces f0 fR : closed -> wf all ->
  (forall t, In t all -> forall x, In x (tout t) -> f0 x = None) ->
  result all f0 = Some fR ->
  exists fS, result (sub all keep) f0 = Some fS /\ forall x, kept_out x -> fS x = fR x.
Proof.
  intros CL WF _ RES. destruct (script_agrees f0 fR CL WF RES) as [fS [R A]].
  exists fS. split; [exact R|]. intros x Hx. symmetry. apply A. right. exact Hx.
Qed.

End Closed.

(* non-vacuity: a diamond a -> (b, c) -> d plus an unrelated task e; the lineage of d's output lists a, b, c, d *)
Definition tA : task := {| tin := [0]; tout := [1]; sem := fun xs => match xs with [Some v] => Some [v + 1] | _ => None end |}.
Definition tB : task := {| tin := [1]; tout := [2]; sem := fun xs => match xs with [Some v] => Some [v * 2] | _ => None end |}.
Definition tC : task := {| tin := [1]; tout := [3]; sem := fun xs => match xs with [Some v] => Some [v * 3] | _ => None end |}.
Definition tE : task := {| tin := [0]; tout := [9]; sem := fun xs => match xs with [Some v] => Some [v + 100] | _ => None end |}.
Definition tD : task := {| tin := [2; 3]; tout := [4]; sem := fun xs => match xs with [Some v; Some w] => Some [v + w] | _ => None end |}.
Example script_example :
  let f0 : fs := fun x => if Nat.eqb x 0 then Some 5 else None in
  match result [tA; tB; tE; tC; tD] f0, result (sub [tA; tB; tE; tC; tD] [true; true; false; true; true]) f0 with
  | Some fR, Some fS => fR 4 = Some 30 /\ fS 4 = Some 30 /\ fS 9 = None /\ fR 9 = Some 105
  | _, _ => False
  end.
Proof. vm_compute. repeat split. Qed.
