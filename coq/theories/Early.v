(* A finished node has no task in flight and the producers of its files have finished (C05_not_early core):
   when the sink/driver returns, every direct feeder of it over a file edge has finished. *)
From Coq Require Import List PeanoNat.
Import ListNotations.
Require Import NetA Inv.

Section Early.
Variable c : cfg.
Variable len : nat -> nat.
Hypothesis WF : wf c len.

(* What v has seen closed: in a round that saw a closed port, every in-edge already passed is closed; once createTasks
   is done, every file in-edge is (the parameter ports may not have been read: NetA.AEndRound). *)
Definition Closed2 (s : st) (v : nat) : Prop :=
  (ct (ns s v) = CtDone -> forall y, In y (ins c v) -> epar c y = false -> clo (es s y) = true) /\
  (forall todo, ct (ns s v) = CtRecv todo true -> forall y, In y (ins c v) -> ~ In y todo -> clo (es s y) = true).

Definition Inv2 (s : st) : Prop := forall v, v < nn c -> Closed2 s v.

Lemma init_inv2 : Inv2 (init c).
Proof. intros v Hv. split; discriminate. Qed.

Lemma closed2_mono s s' w : Closed2 s w -> ct (ns s' w) = ct (ns s w) ->
  (forall e, clo (es s e) = true -> clo (es s' e) = true) -> Closed2 s' w.
Proof.
  intros [A B] Hc Hm. unfold Closed2. rewrite Hc. split.
  - intros D y Hy Hf. apply Hm. now apply A.
  - intros todo Hr y Hy Hn. apply Hm. eapply B; eauto.
Qed.

Lemma step_inv2 s a s' : Inv c len s -> Inv2 s -> node_of a < nn c -> step c s a = Some s' -> Inv2 s'.
Proof.
  intros HI H2 Hv Hstep. destruct (step_lstep Hstep) as (n' & q' & HL & Hns & Hes).
  assert (Hm : forall e, clo (es s e) = true -> clo (es s' e) = true).
  { intros e. rewrite Hes. apply (lstep_clo_mono _ HL). }
  intros w Hw. destruct (Nat.eq_dec w (node_of a)) as [->|Hne].
  2: { apply closed2_mono with s; auto. now rewrite Hns, upd_other. }
  assert (Hn' : ns s' (node_of a) = n') by (rewrite Hns; apply upd_same).
  destruct (H2 _ Hv) as [A B].
  (* the rules of the Run loop keep the control state; of the others only LBeginEnd, LRecv, LRecvClosed and LEndClosed reach
     CtDone or a round that saw a closed port *)
  destruct HL; simpl in *; try (apply closed2_mono with s; [apply H2, Hv|rewrite Hn'; reflexivity|exact Hm]).
  all: unfold Closed2; rewrite Hn'; (split; [intros D|intros td D]; try discriminate).
  - (* LBeginEnd *) destruct (wf_src _ _ WF v L Sl) as [_ ->]. intros y [].
  - (* LRecv: not after a closed port was seen *) injection D as <- ->. discriminate (recv_not_saw WF HI Hv Ct Q).
  - (* LRecvClosed *) injection D as <-. intros z Hz Hn. apply Hm. destruct (Nat.eq_dec z y) as [->|Hzy]; [exact Cl|].
    destruct saw.
    + apply (B _ Ct z Hz). intros [E|E]; [congruence|tauto].
    + destruct (proj2 (first_closed WF HI Hv Ct Q Cl) eq_refl z Hz); [congruence|tauto].
  - (* LEndClosed *) intros y Hy Hf. apply Hm, (B _ Ct y Hy). intros Hin.
    rewrite forallb_forall in Pa. rewrite (Pa y Hin) in Hf. discriminate.
Qed.

(* the feeder of a parameter port need not have finished: createTasks stops reading parameters once a file port closed *)
Theorem finished_upward s v : Inv c len s -> Inv2 s -> v < nn c -> rn (ns s v) = RFin ->
  fl (ns s v) = [] /\ forall y, In y (ins c v) -> epar c y = false -> rn (ns s (esrc c y)) = RFin.
Proof.
  intros HI H2 Hv Hf. destruct (ni_fin (proj1 HI v Hv) Hf) as (Hd & Hfl & _). split; [exact Hfl|].
  intros y Hy Hfile. destruct (inv_in HI Hy) as (_ & _ & EI). apply (ei_clo EI), (H2 v Hv); auto.
Qed.

End Early.
Print Assumptions finished_upward.
