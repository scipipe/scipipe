(* C07 -- Task slots are deadlock-free and work-conserving.  Model: Slots (see PropC06). *)
From Coq Require Import List Arith Lia Bool String.
Import ListNotations.
From SP Require Import Skel Gen Expected ExpectedCones Slots Slots7 SlotsTop.
From SP Require NetA NetSlots QueueCap.

(* T1: as C06_code_conforms, and Process.Run (the start-up check on CoresPerTask, the select loop) has the modelled shape *)
Theorem C07_code_conforms :
  skel_eqb skel_Workflow_IncConcurrentTasks exp_Workflow_IncConcurrentTasks
  && skel_eqb skel_Workflow_DecConcurrentTasks exp_Workflow_DecConcurrentTasks
  && skel_eqb skel_Task_Execute exp_Task_Execute
  && skel_eqb skel_Process_Run exp_Process_Run = true.
Proof. vm_compute. reflexivity. Qed.

(* progress: as long as some task is unfinished and every task asks for at most `cap` cores, some task can move --
   tasks with different core counts can never block each other for ever; every schedule, every reachable state *)
Theorem C07_progress : forall (cap0 : nat) (cs : list nat) (sched : list nat) (s' : state),
  (forall c, In c cs -> c <= cap0) ->
  run (init cap0 cs) sched = Some s' ->
  (exists i t, nth_error (tasks s') i = Some t /\ st t <> Finished) ->
  exists i, step s' i <> None.
Proof. exact SlotsTop.progress. Qed.

(* work conservation: if the waiting tasks fit into the free slots together, every maximal run made of acquisition
   steps only ends with all of them executing at the same time -- no release, no command exit is needed *)
Theorem C07_work_conserving : forall (cap0 : nat) (cs : list nat) (sched : list nat) (s' : state),
  fold_right Nat.add 0 cs <= cap0 ->
  run_acq (init cap0 cs) sched = Some s' ->
  (forall i, acq s' i = true -> step s' i = None) ->
  forall i t, nth_error (tasks s') i = Some t -> contender t = false.
Proof. exact SlotsTop.work_conserving. Qed.

(* the same from any state, not only the initial one, that satisfies the mutex discipline and in which what the waiting
   tasks still want fits beside the tokens already deposited (Fits); the token invariant is asked for and not used *)
Theorem C07_work_conserving_general : forall (s : state) (sched : list nat) (s' : state),
  Inv s -> MInv s -> Fits s -> run_acq s sched = Some s' ->
  (forall i, acq s' i = true -> step s' i = None) ->
  forall i t, nth_error (tasks s') i = Some t -> contender t = false.
Proof. exact Slots7.C07_work_conserving. Qed.

(* a process asking for more cores than the maximum is rejected before it creates any task *)
Theorem C07_oversize_rejected_code :
  match exp_Process_Run with
  | SDefer _ :: SIf c [SFail] [] :: SAssign _ :: SAssign a :: _ =>
      String.eqb c "p.CoresPerTask > cap(p.workflow.concurrentTasks)" && String.eqb a "tasks := p.createTasks()"
  | _ => false
  end = true.
Proof. vm_compute. reflexivity. Qed.

(* [step] without the mutex: a task at WaitLock goes on whatever [mutex] holds *)
Definition step_nomutex (s : state) (i : nat) : option state :=
  match nth_error (tasks s) i with
  | Some t => match st t with
              | WaitLock => Some {| cap := cap s; tokens := tokens s; mutex := None; tasks := upd (tasks s) i (set_pc t (Depositing 0)) |}
              | _ => step s i
              end
  | None => None
  end.
Fixpoint run_nomutex (s : state) (sched : list nat) : option state :=
  match sched with [] => Some s | i :: r => match step_nomutex s i with Some s' => run_nomutex s' r | None => None end end.
(* why the lock bracket is demanded: without the mutex two 2-core tasks on capacity 2 get stuck, each holding one token *)
Theorem C07_no_mutex_refuted :
  exists s', run_nomutex (init 2 [2; 2]) [0; 1; 0; 1; 0; 1] = Some s'
             /\ step_nomutex s' 0 = None /\ step_nomutex s' 1 = None
             /\ (exists t, nth_error (tasks s') 0 = Some t /\ st t <> Finished).
Proof. eexists. split; [vm_compute; reflexivity|]. repeat split. eexists. split; [vm_compute; reflexivity|discriminate]. Qed.

(* work conservation across a process's queue of started tasks (NetSlots): when a process has formed a task and its Run loop
   is at the select, the task enters the slot machine as a new idle task, however many earlier tasks of that process are
   still unforwarded (finished or not) and whatever the slots hold; from there C07_work_conserving_general applies to it.
   (T1 tie: both cases of the select in exp_Process_Run are unconditional.) *)
Theorem C07_spawn_never_waits_for_the_queue : forall (p : NetSlots.pcfg) (s : NetSlots.pst) (v : nat),
  v < NetA.nn (NetSlots.ncfg p) ->
  NetA.ct (NetA.ns (NetSlots.net s) v) = NetA.CtHand -> NetA.rn (NetA.ns (NetSlots.net s) v) = NetA.RSel ->
  exists s', NetSlots.pstep p s (NetSlots.PNet (NetA.AHand v)) = Some s'
             /\ List.length (Slots.tasks (NetSlots.sl s')) = S (List.length (Slots.tasks (NetSlots.sl s)))
             /\ Slots.tokens (NetSlots.sl s') = Slots.tokens (NetSlots.sl s).
Proof.
  intros p s v Hv C R. unfold NetSlots.pstep.
  rewrite (proj2 (Nat.ltb_lt _ _) Hv).
  unfold NetA.step. rewrite C, R. eexists. split; [reflexivity|]. simpl. rewrite app_length. simpl. split; [lia|reflexivity].
Qed.

(* the same, on a model of one process's FIFO of started tasks and the slots alone (QueueCap): a formed task and a free slot
   never wait for each other, whatever the FIFO holds ... *)
Theorem C07_queue_work_conserving : forall (K : nat) (s : QueueCap.st), 0 < QueueCap.todo s -> 0 < QueueCap.free s ->
  exists s1 s2, QueueCap.step K false s QueueCap.Spawn = Some s1
                /\ QueueCap.step K false s1 (QueueCap.Acquire (List.length (QueueCap.fifo s))) = Some s2
                /\ QueueCap.free s2 = QueueCap.free s - 1.
Proof. exact QueueCap.uncapped_work_conserving. Qed.

(* ... whereas a Run loop that stops accepting tasks while the FIFO is as long as the slot count (seeded changes C07h, C07i) idles
   a slot: two slots, the oldest task running, the one behind it finished, a third formed -- nothing can start until the oldest ends *)
Theorem C07_capped_queue_refuted :
  let s := {| QueueCap.todo := 1; QueueCap.fifo := [QueueCap.Running; QueueCap.Finished]; QueueCap.free := 1 |} in
  QueueCap.step 2 true s QueueCap.Spawn = None /\ QueueCap.step 2 true s QueueCap.Forward = None
  /\ (forall i, QueueCap.step 2 true s (QueueCap.Acquire i) = None) /\ 0 < QueueCap.todo s /\ 0 < QueueCap.free s.
Proof. exact QueueCap.capped_idles_a_slot. Qed.

(* T1, call cones (DESIGN 11.26, ExpectedCones.v): every function of scipipe reachable from the functions above is one the
   models were compared with. *)
Theorem C07_cone_conforms :
  strs_eqb cone_Workflow_IncConcurrentTasks exp_cone_Workflow_IncConcurrentTasks
  && strs_eqb cone_Workflow_DecConcurrentTasks exp_cone_Workflow_DecConcurrentTasks
  && strs_eqb cone_Task_Execute exp_cone_Task_Execute
  && strs_eqb cone_Process_Run exp_cone_Process_Run = true.
Proof. vm_compute. reflexivity. Qed.

Print Assumptions C07_code_conforms.
Print Assumptions C07_progress.
Print Assumptions C07_work_conserving.
Print Assumptions C07_work_conserving_general.
Print Assumptions C07_oversize_rejected_code.
Print Assumptions C07_no_mutex_refuted.
Print Assumptions C07_cone_conforms.
Print Assumptions C07_spawn_never_waits_for_the_queue.
Print Assumptions C07_queue_work_conserving.
Print Assumptions C07_capped_queue_refuted.
