(* The history variables follow Kahn's principle: what a network computes does not depend on the schedule.  The k-th task
   of a node and the k-th item on an edge are functions of the configuration alone ([task], [flow]); in every reachable
   state the histories are the initial segments of these streams that the counters give (KInv).  The equations between
   the histories themselves (Ghost.GInv) follow. *)
From Coq Require Import List Lia PeanoNat.
Import ListNotations.
Require Import Lib NetA Inv Ghost.

Lemma nth_map_seq {A} (f : nat -> A) n k d : k < n -> nth k (map f (seq 0 n)) d = f k.
Proof. intros H. rewrite (nth_indep _ d (f 0)) by now rewrite map_length, seq_length. now rewrite map_nth, seq_nth. Qed.

Lemma firstn_seq_le n : forall a m, n <= m -> firstn n (seq a m) = seq a n.
Proof. induction n as [|n IH]; intros a [|m] H; simpl; auto; try lia. f_equal. apply IH. lia. Qed.

Section GP.
Variable c : cfg.
Variable len : nat -> nat.
Variable gc : gcfg.
Hypothesis WF : wf c len.

Notation GInv := (GInv c gc).
Notation Inv := (Inv c len).

(* By recursion along the topological order: a source takes its k-th item, a process the k-th item of every in-edge,
   which is the output of the k-th task of the node before.  [fuel] bounds the depth; v + 1 is enough for node v. *)
Fixpoint task_at (fuel v k : nat) : list item :=
  match fuel with
  | 0 => []
  | S f => match slen c v with
           | Some _ => [nth k (sitems gc v) 0]
           | None => map (fun y => outf gc (esrc c y) y (task_at f (esrc c y) k)) (ins c v)
           end
  end.
Definition task (v k : nat) : list item := task_at (S v) v k.
Definition flow (e k : nat) : item := outf gc (esrc c e) e (task (esrc c e) k).

Lemma task_at_fuel f1 : forall f2 v k, v < f1 -> v < f2 -> task_at f1 v k = task_at f2 v k.
Proof.
  induction f1 as [|f1 IH]; intros [|f2] v k H1 H2; try lia. simpl. destruct (slen c v); auto.
  apply map_ext_in. intros y Hy. apply in_ins in Hy. destruct Hy as [He <-]. destruct (wf_topo _ _ WF y He) as [Hlt _].
  f_equal. apply IH; lia.
Qed.

(* the equation of Ghost.tuple_of, with the streams in place of the histories *)
Lemma task_eq v k :
  task v k = match slen c v with Some _ => [nth k (sitems gc v) 0] | None => map (fun y => flow y k) (ins c v) end.
Proof.
  unfold task. simpl. destruct (slen c v); auto.
  apply map_ext_in. intros y Hy. apply in_ins in Hy. destruct Hy as [He <-]. destruct (wf_topo _ _ WF y He) as [Hlt _].
  unfold flow, task. f_equal. apply task_at_fuel; lia.
Qed.

(* the round in progress at v holds an item of its in-edge y: the premise of Ghost.g_cur.  At CtHand only for a process:
   a source comes to CtHand without a round, and holds no items *)
Definition got (v : nat) (n : nst) (y : nat) : Prop :=
  match ct n with CtRecv todo false => ~ In y todo | CtHand => slen c v = None | _ => False end.

Record KInv (s : st) (g : gst) : Prop := {
  k_hist : forall e, e < E c -> hist g e = map (flow e) (seq 0 (snt (es s e)));
  k_crt  : forall v, v < nn c -> crt g v = map (task v) (seq 0 (cN (ns s v)));
  k_cur  : forall v y, v < nn c -> In y (ins c v) -> got v (ns s v) y -> alookup y (cur g v) = flow y (cN (ns s v))
}.

Lemma cN_frame {s s' v n'} : ns s' = upd (ns s) v n' -> cN n' = cN (ns s v) -> forall w, cN (ns s' w) = cN (ns s w).
Proof. intros -> Hc w. unfold upd. destruct (Nat.eqb_spec w v) as [->|]; auto. Qed.

(* a step at v that leaves the ghost state alone *)
Lemma kahn_frame {s s' g v n' q'} :
  KInv s g -> ns s' = upd (ns s) v n' -> (forall e, es s' e = q' e) -> (forall e, snt (q' e) = snt (es s e)) ->
  cN n' = cN (ns s v) -> (forall y, In y (ins c v) -> got v n' y -> got v (ns s v) y) -> KInv s' g.
Proof.
  intros [k1 k2 k3] Hns Hes Hs Hc Hgot. pose proof (cN_frame Hns Hc) as HcN.
  constructor.
  - (* k_hist *) intros e He. rewrite Hes, Hs. auto.
  - (* k_crt *) intros w Hw. rewrite HcN. auto.
  - (* k_cur *) intros w y Hw Hy Hp. rewrite HcN. apply k3; auto. revert Hp. rewrite Hns. unfold upd.
    destruct (Nat.eqb_spec w v) as [->|]; auto.
Qed.

Theorem gstep_inv s a s' g :
  Inv s -> KInv s g -> node_of a < nn c -> step c s a = Some s' -> KInv s' (gstep c gc s g a).
Proof.
  intros HI HK Hv Hstep. destruct (step_lstep Hstep) as (n' & q' & HL & Hns & Hes).
  pose proof (proj1 HI _ Hv) as NI.
  pose proof (kahn_frame HK Hns Hes) as Frame. unfold got in Frame.
  destruct HL; simpl in Hv, Hns, NI, Frame.
  - (* LBeginMore: the new ct is CtHand, where [got] asks slen c v = None, against Sl *)
    apply Frame; auto. congruence.
  - (* LBeginEnd *)
    apply Frame; auto. intros y _ [].
  - (* LBeginRound *)
    destruct (is_perm_in Pm (nodup_ins c v)) as [Hin _].
    apply Frame; auto.
    intros y Hy Hn. exfalso. apply Hn, Hin, Hy.
  - (* LRecv *)
    destruct (recv_head WF HI Hv Ct) as [Hy R].
    simpl gstep. rewrite Ct, (proj2 (Nat.ltb_lt _ _) Q).
    pose proof (cN_frame Hns eq_refl) as HcN. destruct HK as [k1 k2 k3]. constructor; simpl.
    + (* k_hist *) intros e He. rewrite Hes, k1 by auto. unfold upd. destruct (Nat.eqb_spec e y) as [->|]; auto.
    + (* k_crt *) intros w Hw. rewrite HcN. auto.
    + (* k_cur *) intros w y' Hw Hy'. rewrite HcN, Hns. unfold upd, got.
      destruct (Nat.eqb_spec w v) as [->|Hne]; simpl; [|apply k3; auto].
      destruct saw; [intros []|]. intros Hn. destruct (Nat.eqb_spec y y') as [<-|Hyy].
      * (* the item taken is number rcv y = cN v of edge y *)
        rewrite k1, nth_map_seq by (auto; apply in_ins in Hy; tauto). f_equal. lia.
      * apply k3; auto. unfold got. rewrite Ct. intros [E|E]; contradiction.
  - (* LRecvClosed *)
    simpl gstep. rewrite Ct, (proj2 (Nat.ltb_ge _ _) Q).
    apply Frame; auto. intros z _ [].
  - (* LEndClosed *)
    apply Frame; auto. intros y _ [].
  - (* LEndRound *)
    apply Frame; auto. rewrite Ct. intros y _ _ [].
  - (* LHand *)
    assert (HcN' : forall w, w <> v -> cN (ns s' w) = cN (ns s w)) by (intros w Hw; rewrite Hns; now rewrite upd_other).
    assert (Hcv : cN (ns s' v) = S (cN (ns s v))) by (rewrite Hns; now rewrite upd_same).
    destruct HK as [k1 k2 k3]. constructor; simpl.
    + (* k_hist *) intros e He. rewrite Hes. auto.
    + (* k_crt *) intros w Hw. unfold upd. destruct (Nat.eqb_spec w v) as [->|Hne]; [|rewrite HcN'; auto].
      rewrite Hcv, seq_S, map_app, <- k2 by auto. simpl. f_equal. f_equal.
      (* the tuple handed over is task number cN v: the round holds the items of that number *)
      rewrite task_eq. destruct (slen c v) eqn:Sl; auto.
      apply map_ext_in. intros y Hy. apply k3; auto. unfold got. now rewrite Ct.
    + (* k_cur *) intros w y Hw Hy. destruct (Nat.eq_dec w v) as [->|Hne].
      * rewrite Hns, upd_same. intros [].
      * rewrite HcN' by auto. rewrite Hns, !upd_other by auto. apply k3; auto.
  - (* LExit *) apply Frame; auto.
  - (* LPop *) apply Frame; auto.
  - (* LSend *)
    destruct (ni_stodo NI _ Rn) as (_ & Hsub). assert (Hx : In x (outs c v)) by (apply Hsub; left; reflexivity).
    destruct (inv_out HI Hx) as (HxE & Hxs & EX).
    pose proof (ei_snt EX) as x1. rewrite (sx_head Rn) in x1.
    pose proof (ni_total NI) as T. unfold sending in T. rewrite Rn in T.
    pose proof (cN_frame Hns eq_refl) as HcN. simpl gstep. rewrite Rn.
    destruct HK as [k1 k2 k3]. constructor; simpl.
    + (* k_hist *) intros e He. rewrite Hes. unfold upd. destruct (Nat.eqb_spec e x) as [->|Hne]; auto.
      simpl (snt _). rewrite seq_S, map_app, <- k1 by auto. simpl. f_equal. f_equal.
      (* the task whose output goes out is number eN v = snt x *)
      unfold flow. rewrite Hxs, k2, nth_map_seq by (auto; lia). f_equal. f_equal. lia.
    + (* k_crt *) intros w Hw. rewrite HcN. auto.
    + (* k_cur *) intros w y Hw Hy. rewrite HcN, Hns. unfold upd. destruct (Nat.eqb_spec w v) as [->|]; auto.
  - (* LEndSend *) apply Frame; auto.
  - (* LFin *)
    apply Frame; auto.
    intros e. destruct (existsb _ _); reflexivity.
Qed.

(* a round that holds an item of y has taken it from the edge: it is number cN v, and it has been sent *)
Lemma got_sent s v y : Inv s -> In y (ins c v) -> got v (ns s v) y -> cN (ns s v) < snt (es s y).
Proof.
  intros HI Hy Hp. destruct (in_edge WF HI Hy) as (R & ? & _). unfold got, hand, rx in *. destruct (ct (ns s v)) as [|todo [|]| |]; try contradiction.
  - apply existsb_eqb_false in Hp. rewrite Hp in R. lia.
  - lia.
Qed.

(* the equations between the histories: each is an initial segment of its stream, and the streams satisfy them *)
Theorem kahn_ginv s g : Inv s -> KInv s g -> GInv s g.
Proof.
  intros HI [k1 k2 k3].
  assert (Hnth : forall y k, y < E c -> k < snt (es s y) -> nth k (hist g y) 0 = flow y k).
  { intros y k Hy Hk. rewrite k1 by auto. now apply nth_map_seq. }
  constructor.
  - (* g_len *) intros e He. rewrite k1 by auto. now rewrite map_length, seq_length.
  - (* g_emit *) intros e He. pose proof (src_node WF He) as Hu.
    rewrite k1, k2, firstn_map, firstn_seq_le, map_map by (auto; exact (snt_le_cN WF HI He)). reflexivity.
  - (* g_crtn *) intros v Hv. rewrite k2 by auto. now rewrite map_length, seq_length.
  - (* g_crt *) intros v k Hv Hk. rewrite k2, nth_map_seq, task_eq by auto. unfold tuple_of. destruct (slen c v); auto.
    apply map_ext_in. intros y Hy. symmetry. destruct (in_edge WF HI Hy) as (R & ? & _).
    apply Hnth; [apply in_ins in Hy; tauto|lia].
  - (* g_cur *) intros v y Hv Hy Hp. rewrite k3 by auto. symmetry. apply Hnth; [apply in_ins in Hy; tauto|].
    exact (got_sent s v y HI Hy Hp).
Qed.

End GP.
Print Assumptions gstep_inv.
