(* The task / file-store machine (TaskFS): [step] as a relation; the invariant on which C01, C02, C03 and C09 rest, with
   C01 read off it (that every step keeps it is TPres); and the invariant about temp directories behind C05's last clause. *)
From Coq Require Import List PeanoNat.
Import ListNotations.
Require Import Lib Result TaskFS.

(* the content produced for output [x]: [cs] read along [os] *)
Fixpoint lookup (x : nat) (os : list nat) (cs : list content) : option content :=
  match os, cs with
  | o :: os', c :: cs' => if Nat.eqb x o then Some c else lookup x os' cs'
  | _, _ => None
  end.

Lemma upd_same A (f : nat -> A) i a : upd f i a i = a.
Proof. unfold upd. now rewrite Nat.eqb_refl. Qed.
Lemma upd_other A (f : nat -> A) i a j : j <> i -> upd f i a j = f j.
Proof. unfold upd. intros H. destruct (Nat.eqb_spec j i); congruence. Qed.

Lemma shares_true l1 l2 : shares l1 l2 = true <-> exists x, In x l1 /\ In x l2.
Proof.
  unfold shares. rewrite existsb_exists. split.
  - intros [x [H1 H2]]. apply existsb_eqb_In in H2. eauto.
  - intros [x [H1 H2]]. exists x. split; auto. apply existsb_eqb_In; auto.
Qed.

(* [Step c s p a s']: the task of [a], standing at [p], may take [a], which leads to [s'].  One constructor per way [step]
   succeeds; every preservation proof over TaskFS is a case analysis of this relation.  A consumer takes [p] as a variable
   and keeps [pcs s (node_of a) = p] beside it ([remember], or a hypothesis): [destruct] on an index that is a term forgets it. *)
Inductive Step (c : cfg) (s : st) : pc -> act -> st -> Prop :=
| S_Start t : deps_done c s t = true -> Step c s Wait (AStart t) (set_pc s t ChkTemp)
| S_Leftover t : tdir s t = true -> Step c s ChkTemp (AChkTemp t) (fail s)
| S_ChkTemp t : tdir s t = false -> Step c s ChkTemp (AChkTemp t) (set_pc s t ChkOut)
| S_Skip t : any_exists (fin s) (tout (tk c t)) = true -> Step c s ChkOut (AChkOut t) (set_pc s t DoneSkip)
| S_NoSkip t : any_exists (fin s) (tout (tk c t)) = false -> Step c s ChkOut (AChkOut t) (set_pc s t MkTemp)
| S_MkTemp t :
    Step c s MkTemp (AMkTemp t)
      {| fin := fin s; tmp := tmp s; tdir := upd (tdir s) t true; pcs := upd (pcs s) t Cmd; val := val s; exited := false |}
| S_Write t x cnt :
    Step c s Cmd (AWrite t x cnt)
      {| fin := fin s; tmp := upd (tmp s) t (upd (tmp s t) x (Some cnt)); tdir := tdir s; pcs := pcs s; val := val s; exited := false |}
| S_CmdOk t omit cs : sem (tk c t) (map (fin s) (tin (tk c t))) = Some cs ->
    Step c s Cmd (ACmdOk t omit)
      {| fin := fin s; tmp := upd (tmp s) t (write_tmp (tmp s t) (tout (tk c t)) cs omit);
         tdir := tdir s; pcs := upd (pcs s) t Ensure; val := upd (val s) t cs; exited := false |}
| S_CmdFail t : Step c s Cmd (ACmdFail t) (fail s)
| S_Ensure t perm : forallb (fun x => isSome (tmp s t x)) (tout (tk c t)) = true ->
    is_perm perm (tout (tk c t)) = true -> Step c s Ensure (AEnsure t perm) (set_pc s t (Ren perm))
| S_Missing t perm : forallb (fun x => isSome (tmp s t x)) (tout (tk c t)) = false ->
    Step c s Ensure (AEnsure t perm) (fail s)
| S_Rename t x todo :
    Step c s (Ren (x :: todo)) (ARename t)
      {| fin := upd (fin s) x (tmp s t x); tmp := upd (tmp s) t (upd (tmp s t) x None);
         tdir := tdir s; pcs := upd (pcs s) t (Ren todo); val := val s; exited := false |}
| S_EndRen t : Step c s (Ren []) (AEndRen t) (set_pc s t RmTemp)
| S_RmTemp t :
    Step c s RmTemp (ARmTemp t)
      {| fin := fin s; tmp := upd (tmp s) t (fun _ => None); tdir := upd (tdir s) t false;
         pcs := upd (pcs s) t DoneRan; val := val s; exited := false |}.

Lemma step_Step c s a s' :
  step c s a = Some s' -> node_of a < nt c /\ Step c s (pcs s (node_of a)) a s'.
Proof.
  unfold step. destruct (exited s); [discriminate|].
  destruct (Nat.ltb_spec (node_of a) (nt c)) as [L|L]; [|discriminate].
  intros H. refine (conj L _). revert H.
  destruct a as [t|t|t|t|t x cnt|t omit|t|t perm|t|t|t]; simpl;
    destruct (pcs s t) as [| | | | | |[|y todo]| | |].
  (* an action at a pc that is not its own gives None; at its own pc a rule without a guard is its constructor; left
     are the five actions that test something *)
  all: try (intros [= <-]; constructor).
  - (* AStart *) destruct (deps_done c s t) eqn:G; intros [= <-]. now constructor.
  - (* AChkTemp *) destruct (tdir s t) eqn:G; intros [= <-]; now constructor.
  - (* AChkOut *) destruct (any_exists _ _) eqn:G; intros [= <-]; now constructor.
  - (* ACmdOk *) destruct (sem _ _) as [cs|] eqn:G; intros [= <-]. now constructor.
  - (* AEnsure *) destruct (forallb _ _) eqn:G; [destruct (is_perm _ _) eqn:G'|]; intros [= <-]; now constructor.
Qed.

Lemma Step_others {c s p a s'} : Step c s p a s' -> forall u, u <> node_of a ->
  pcs s' u = pcs s u /\ tmp s' u = tmp s u /\ tdir s' u = tdir s u /\ val s' u = val s u.
Proof. intros H u N. destruct H; simpl; rewrite ?upd_other by exact N; auto. Qed.

Lemma Step_fin {c s p a s'} : Step c s p a s' -> forall x, fin s' x <> fin s x -> exists todo, p = Ren (x :: todo).
Proof.
  intros H y D. destruct H; simpl in *; try congruence.
  exists todo. destruct (Nat.eq_dec y x) as [->|N]; [reflexivity|]. rewrite upd_other in D by exact N. congruence.
Qed.

Lemma Step_not_done {c s p a s'} : Step c s p a s' -> is_done p = false.
Proof. intros H. destruct H; reflexivity. Qed.

Section Inv.
Variable c : cfg.
Variable f0 : fs.
Variable left0 : nat -> bool.

(* the table is well formed: a task's outputs are duplicate-free, tasks have disjoint outputs, no task reads an output of
   itself or of a later task (w_topo, with t <= d), sem returns one content per output; it gives [Result.wf] of the
   table in task order (Glue.wfc_wf) *)
Record wfc : Prop := {
  w_nodup : forall t, t < nt c -> NoDup (tout (tk c t));
  w_disj : forall t t' x, t < nt c -> t' < nt c -> t <> t' -> In x (tout (tk c t)) -> ~ In x (tout (tk c t'));
  w_topo : forall t d x, t < nt c -> d < nt c -> t <= d -> In x (tin (tk c t)) -> ~ In x (tout (tk c d));
  w_len : forall t xs cs, t < nt c -> sem (tk c t) xs = Some cs -> length cs = length (tout (tk c t))
}.

(* [past_chk]: the task has passed the skip check and is to run (none of its outputs existed);
   [past_cmd]: its command has exited with status 0, so that [val s t] holds what it produced *)
Definition past_chk (p : pc) := match p with MkTemp | Cmd | Ensure | Ren _ | RmTemp | DoneRan => true | _ => false end.
Definition past_cmd (p : pc) := match p with Ensure | Ren _ | RmTemp | DoneRan => true | _ => false end.

Lemma Step_past_cmd s a s' : Step c s (pcs s (node_of a)) a s' -> forall u, past_cmd (pcs s' u) = true ->
  past_cmd (pcs s u) = true \/ exists omit, a = ACmdOk u omit.
Proof.
  intros H u. destruct (Nat.eq_dec u (node_of a)) as [->|N]; [|rewrite (proj1 (Step_others H u N)); auto].
  (* ACmdOk is the only rule that leads from a pc where [past_cmd] is false to one where it is true *)
  remember (pcs s (node_of a)) as p eqn:P. destruct H; simpl in *; rewrite ?upd_same, <- ?P; eauto.
Qed.

(* the task has renamed its output x onto the final path *)
Definition committed (p : pc) (x : nat) : Prop :=
  match p with
  | Ren todo => ~ In x todo
  | RmTemp | DoneRan => True
  | _ => False
  end.

Lemma wait_dec (p : pc) : {p = Wait} + {p <> Wait}.
Proof. destruct p; (left; reflexivity) || (right; discriminate). Qed.

Lemma committed_past_cmd p x : committed p x -> past_cmd p = true.
Proof. destruct p; intros H; (reflexivity || destruct H). Qed.

Lemma past_cmd_chk p : past_cmd p = true -> past_chk p = true.
Proof. destruct p; auto. Qed.

Definition committed_dec p x : {committed p x} + {~ committed p x}.
Proof.
  destruct p; simpl; try (right; tauto); try (left; exact I).
  destruct (in_dec Nat.eq_dec x todo); tauto.
Defined.

(* What holds of task t in every reachable state.  [val s t] is a ghost: the contents the command of t produced, in
   the order of [tout], recorded by ACmdOk; [lookup x (tout ..) (val s t)] is the content it produced for path x.
   t_sem says that the inputs have not changed since the command read them; t_ens and t_ren follow the produced contents
   through the temp dir, up to the rename after which t_fin speaks of them.  t_abs and t_skip carry the outcome of the
   skip check, which reads [fin s], over to [f0] (the two agree on t's outputs until t renames): a task that is to run
   found all its outputs absent initially, a skipped one found some present; t_deps: once t has left Wait, every earlier
   task one of whose outputs it reads is done. *)
Record TInv (s : st) (t : nat) : Prop := {
  t_fin : forall x, In x (tout (tk c t)) ->
          (committed (pcs s t) x -> fin s x = lookup x (tout (tk c t)) (val s t) /\ fin s x <> None) /\
          (~ committed (pcs s t) x -> fin s x = f0 x);
  t_abs : past_chk (pcs s t) = true -> forall x, In x (tout (tk c t)) -> f0 x = None;
  t_sem : past_cmd (pcs s t) = true -> sem (tk c t) (map (fin s) (tin (tk c t))) = Some (val s t);
  t_ens : pcs s t = Ensure -> forall x v, In x (tout (tk c t)) -> tmp s t x = Some v ->
          lookup x (tout (tk c t)) (val s t) = Some v;
  t_ren : forall todo, pcs s t = Ren todo ->
          NoDup todo /\ forall x, In x todo -> In x (tout (tk c t)) /\
             exists v, tmp s t x = Some v /\ lookup x (tout (tk c t)) (val s t) = Some v;
  t_deps : pcs s t <> Wait -> forall d, d < t -> shares (tout (tk c d)) (tin (tk c t)) = true -> is_done (pcs s d) = true;
  t_skip : pcs s t = DoneSkip -> any_exists f0 (tout (tk c t)) = true
}.

Definition Inv (s : st) : Prop :=
  (forall t, t < nt c -> TInv s t) /\
  (forall x, (forall t, t < nt c -> ~ In x (tout (tk c t))) -> fin s x = f0 x).

Lemma init_inv : Inv (init c f0 left0).
Proof.
  split.
  - intros t Ht. constructor; simpl; try discriminate; tauto.
  - intros; reflexivity.
Qed.

(* C01, read off the invariant: a declared output path either still has its initial content or holds exactly what a
   successfully finished command of its task produced *)
Theorem C01_atomic s : Inv s -> forall t x, t < nt c -> In x (tout (tk c t)) ->
  fin s x = f0 x \/
  (past_cmd (pcs s t) = true /\ sem (tk c t) (map (fin s) (tin (tk c t))) = Some (val s t) /\
   fin s x = lookup x (tout (tk c t)) (val s t) /\ fin s x <> None).
Proof.
  intros [HT _] t x Ht Hx. destruct (t_fin _ _ (HT t Ht) x Hx) as [Hc Hn].
  destruct (committed_dec (pcs s t) x) as [C|C]; [right|left; auto].
  pose proof (committed_past_cmd _ _ C) as P. destruct (Hc C) as [Ev En]. exact (conj P (conj (t_sem _ _ (HT t Ht) P) (conj Ev En))).
Qed.

End Inv.

(* C05, last clause.  An invariant about [tdir] and [tmp] alone: it needs no well-formedness of the task table. *)
Section TmpInv.
Variable c : cfg.
Variable f0 : fs.
Variable left0 : nat -> bool.

Definition clean (s : st) (t : nat) : Prop :=
  match pcs s t with
  | Wait | ChkTemp | ChkOut | MkTemp | DoneSkip => tdir s t = left0 t /\ forall x, tmp s t x = None
  | DoneRan => tdir s t = false /\ forall x, tmp s t x = None
  | _ => True
  end.

Definition CInv (s : st) : Prop := forall t, clean s t.

Lemma init_cinv : CInv (init c f0 left0).
Proof. intros t. unfold clean. simpl. auto. Qed.

Lemma step_cinv s a s' : CInv s -> step c s a = Some s' -> CInv s'.
Proof.
  intros HI H u. apply step_Step in H as (_ & H). pose proof (HI u) as Hu. unfold clean in *.
  destruct (Nat.eq_dec u (node_of a)) as [->|N].
  - (* the rules before AMkTemp, and the failing ones, move neither tdir nor tmp of their task, and the clause stays the
       same one; from Cmd to RmTemp nothing is claimed; ARmTemp sets both to what DoneRan asks *)
    remember (pcs s (node_of a)) as p eqn:P. destruct H; simpl in *; rewrite ?upd_same, <- ?P; auto.
  - destruct (Step_others H u N) as (-> & -> & -> & _). exact Hu.
Qed.

(* when every task is done -- whatever the schedule was -- no task has a temp directory or anything in it, provided the
   run did not start on left-overs (a task that meets its own left-over temp dir exits the program instead) *)
Theorem no_leftovers l s : (forall t, left0 t = false) -> run c (init c f0 left0) l = Some s ->
  forall t, is_done (pcs s t) = true -> tdir s t = false /\ forall x, tmp s t x = None.
Proof.
  intros HL H t HD.
  assert (Ct : CInv s).
  { apply (run_invariant (step c) (run c)) with (l := l) (s := init c f0 left0);
      [reflexivity|reflexivity|exact step_cinv|exact init_cinv|exact H]. }
  specialize (Ct t). unfold clean in Ct.
  destruct (pcs s t); try discriminate.
  - (* DoneRan *) exact Ct.
  - (* DoneSkip *) destruct Ct as [A B]. rewrite HL in A. auto.
Qed.

End TmpInv.
